(* C17 — extension points are transparent unless they act.

   "Registering custom dice syntaxes that do not match, installing load/store hooks that pass values through
    unchanged, or installing detail rewriters that return their input changes nothing [...]. When a custom syntax
    does match at the start of an operand, its handler runs exactly once per evaluation of that operand, receives
    exactly the matched text and groups, and its returned value is used by copy."

   Parser side: Model/Peg.v on the grammar REGENERATED from /repo (Gen/Grammar.v), the registered matchers are a
   function offset -> matched length (regexp engine and user parsers are oracles).  Protocol, hooks, rewriters and
   the VM case typeCustomDice: Model/Custom.v.  The general statements are proved in Proofs/; what is said
   about particular inputs on the regenerated grammar, at the end, is evaluated here. *)
From Coq Require Import NArith ZArith List Bool String.
From DS Require Import Model.Peg Gen.Grammar Model.Custom Proofs.GatingProofs Proofs.CustomProofs.
Import ListNotations.
Open Scope N_scope.

(* custom dice syntaxes that never match: the parse is the parse without them,
   for EVERY input, flag setting and fuel, on the regenerated grammar: same acceptance, final offset, ExprCnt,
   errors, furthest failure, emitted opcodes, configuration *)
Theorem C17_never_matching_custom_transparent :
  forall (cm : N -> option N) (fuel : nat) (fl : list bool) (bytes : list N),
    (forall o, cm o = None) ->
    parse_custom cm rules classes acts preds fuel fl bytes = parse rules classes acts preds fuel fl bytes.
Proof. intros. apply never_matching_custom_parse. assumption. Qed.

(* the same on the three-step protocol of custom_dice_parser.go itself: no offset change, nothing emitted,
   nothing pending, every predicate false *)
Theorem C17_never_matching_protocol_inert :
  forall (m : N -> option rawmatch) (width : N -> N), (forall o, m o = None) ->
  forall ops s, pending s = None ->
    prun m width ops s = s /\ Forall (fun b => b = false) (prepared m width ops s).
Proof. exact never_matching_protocol_inert. Qed.

(* predicate true; the action advances exactly over the matched bytes (which end on a rune boundary);
   the emitted instruction carries exactly the match's text / groups / payload; the slot is empty afterwards *)
Theorem C17_protocol_on_match :
  forall (m : N -> option rawmatch) (width : N -> N) s r,
    m (offset s) = Some r -> (0 < rm_len r)%Z ->
    boundary_from width (offset s) (offset s + Z.to_N (rm_len r)) ->
    let s1 := snd (prepare m s) in
    let s2 := consume m width s1 in
    let s3 := commit s2 in
    fst (prepare m s) = true /\
    offset s2 = offset s + Z.to_N (rm_len r) /\
    emitted s3 = emitted s ++ [compile r] /\
    pending s3 = None /\ offset s3 = offset s2.
Proof. exact protocol_on_match. Qed.

(* a match left in the slot by a look-ahead at another offset is never used: the consuming action behaves as if
   the slot held the matcher's answer at the current offset — in every state reachable from Parse's initial one *)
Theorem C17_stale_pending_never_used :
  forall (m : N -> option rawmatch) (width : N -> N) ops o,
    let s := set_offset (prun m width ops pinit) o in
    consume m width s = consume m width (set_pending s (try_match m o)).
Proof. exact stale_pending_never_used_reachable. Qed.

(* parser and VM together: the handler is called with exactly the groups and payload of the match, once per
   evaluation of the emitted instruction *)
Theorem C17_custom_protocol :
  forall m width s r hs vs,
    m (offset s) = Some r -> (0 < rm_len r)%Z ->
    boundary_from width (offset s) (offset s + Z.to_N (rm_len r)) ->
    let s3 := commit (consume m width (snd (prepare m s))) in
    exists c, emitted s3 = emitted s ++ [c] /\ offset s3 = offset s + Z.to_N (rm_len r) /\ pending s3 = None /\
              calls (exec_custom hs c vs) = calls vs ++ [{| hc_item := rm_item r; hc_groups := rm_groups r; hc_payload := rm_payload r |}].
Proof. exact custom_protocol. Qed.

Theorem C17_handler_called_once_per_evaluation :
  forall hs code s, verr (exec_code hs code s) = None -> verr s = None ->
    List.length (calls (exec_code hs code s)) = (List.length (calls s) + count_custom code)%nat.
Proof. exact handler_called_once_per_evaluation. Qed.

(* the value pushed and the span's Ret are copies in a fresh cell: overwriting the handler's own object afterwards
   changes neither *)
Theorem C17_handler_result_used_by_copy :
  forall hs c s h1 a dt content,
    hs (c_item c) (c_groups c) (c_payload c) (vheap s) = (h1, Some a, dt, None) ->
    heap_wf h1 -> read h1 a = Some content ->
    let s' := exec_custom hs c s in
    exists r, detail_ret s' = Some r /\ r <> a /\ read h1 r = None /\
              stack s' = content :: stack s /\
              forall c', read (write (vheap s') a c') r = Some content /\ stack s' = content :: stack s.
Proof. exact handler_result_used_by_copy. Qed.

(* for every store, scope chain, name, raw / hooked / with-detail mode and every behaviour of computed values:
   the load with HookValueLoadPre = (same name, no overwrite), HookValueLoadPost = doCompute,
   GlobalValueLoadFunc = not found, GlobalValueLoadOverwriteFunc = identity is the load without them
   (`observe`: after a FAILED load the Ret field of the span being written is dead; it is the one place where the
   two differ) *)
Theorem C17_identity_hooks_transparent :
  forall (val : Type) (null : val) (is_null is_computed : val -> bool) (val_eqb : val -> val -> bool) (world : Type)
         (exec : val -> hst val world -> hst val world * option val) (builtin : string -> option val)
         name isRaw useHook wd (s : hst val world) v,
    observe val world (load_name val null is_null is_computed val_eqb world exec builtin (id_hooks val world) name isRaw useHook wd s) =
    observe val world (load_name val null is_null is_computed val_eqb world exec builtin (no_hooks val world) name isRaw useHook wd s)
    /\
    store_name val world (id_hooks val world) name v useHook s = store_name val world (no_hooks val world) name v useHook s.
Proof.
  intros. split.
  - apply identity_hooks_transparent_load.
  - apply identity_hooks_transparent_store.
Qed.

(* when the load delivers a value, value and state are identical without `observe` *)
Theorem C17_identity_hooks_transparent_value :
  forall (val : Type) (null : val) (is_null is_computed : val -> bool) (val_eqb : val -> val -> bool) (world : Type)
         (exec : val -> hst val world -> hst val world * option val) (builtin : string -> option val)
         name isRaw useHook wd (s s' : hst val world) v,
    load_name val null is_null is_computed val_eqb world exec builtin (no_hooks val world) name isRaw useHook wd s = (s', OVal val v) ->
    load_name val null is_null is_computed val_eqb world exec builtin (id_hooks val world) name isRaw useHook wd s = (s', OVal val v).
Proof. intros. eapply identity_hooks_transparent_value. eassumption. Qed.

Theorem C17_identity_rewriters_transparent :
  forall (span group : Type) (inner_spans : group -> list span) (last_span : group -> span)
         (sub_default : string -> span -> string) (main_default : string -> group -> list string -> string)
         (splice : string -> group -> string -> string) text groups,
    make_detail span group inner_spans last_span sub_default main_default splice
                (Some (fun d _ _ => d)) (Some (fun d _ => d)) text groups =
    make_detail span group inner_spans last_span sub_default main_default splice None None text groups.
Proof. intros. apply identity_rewriters_transparent. Qed.

(* the table is really consulted: on input "E5" a matcher for E5 changes the parse (dice.custom is emitted),
   a never-matching one does not *)
Definition in_E5 : list N := [69; 53].
Definition all_on : list bool := [true; true; true; true; false; false; false].
Definition fuel0 : nat := Nat.mul 60 100.
Example C17_matching_custom_is_visible :
  let r1 := parse_custom (fun o => if o =? 0 then Some 2 else None) rules classes acts preds fuel0 all_on in_E5 in
  let r0 := parse rules classes acts preds fuel0 all_on in_E5 in
  r_ok r1 = true /\ r_off r1 = 2 /\ mem_N 56 (r_emitted r1) = true /\
  r_ok r0 = true /\ r_off r0 = 2 /\ mem_N 56 (r_emitted r0) = false /\
  parse_custom (fun _ => None) rules classes acts preds fuel0 all_on in_E5 = r0.
Proof. vm_compute. repeat split; reflexivity. Qed.

(* Inside a syntactic predicate the grammar's actions are skipped — ConsumeCustomDice included.  Before the repair
   recorded in known_findings.json (fixed: custom-dice-zero-width-inside-lookahead) the custom alternative therefore
   had zero width in every look-ahead and "(E5)" was rejected although the matcher matches "E5" at offset 1.  Since the
   repair PrepareCustomDice itself advances in skip mode (Model/Peg.v run_pred PCustomP); on the regenerated grammar
   the parenthesised operand is accepted, consumed whole, and dice.custom (opcode 56) is emitted exactly as for the
   bare operand. *)
Definition cm_at1 (o : N) : option N := if o =? 1 then Some 2 else None.
Definition in_pE5 : list N := [40; 69; 53; 41].
Theorem C17_custom_inside_lookahead_consumed :
  exists (cm : N -> option N) (bytes : list N),
    cm 1 = Some 2 /\ bytes = in_pE5 /\
    (let r := parse_custom cm rules classes acts preds fuel0 all_on bytes in
     r_ok r && (r_errs r =? 0) = true /\ r_off r = 4 /\ mem_N 56 (r_emitted r) = true) /\
    (let r := parse_custom (fun o => cm (o + 1)) rules classes acts preds fuel0 all_on [69; 53] in
     r_ok r && (r_errs r =? 0) = true /\ r_off r = 2).
Proof.
  exists cm_at1, in_pE5. vm_compute. repeat split; reflexivity.
Qed.

Example C17_protocol_nonvacuous : exists (m : N -> option rawmatch) w s r,
  m (offset s) = Some r /\ (0 < rm_len r)%Z /\ boundary_from w (offset s) (offset s + Z.to_N (rm_len r)).
Proof.
  exists ex_m, ex_w, {| pending := None; offset := 4; emitted := [] |}, {| rm_item := 0; rm_groups := ["E12"%string; "12"%string]; rm_text := ""%string; rm_len := 3; rm_payload := 9 |}.
  split; [reflexivity |]. split; [reflexivity |].
  simpl. apply bf_step; [reflexivity | discriminate |].
  apply bf_step; [reflexivity | discriminate |].
  apply bf_step; [reflexivity | discriminate |].
  apply bf_refl.
Qed.

Print Assumptions C17_never_matching_custom_transparent.
Print Assumptions C17_never_matching_protocol_inert.
Print Assumptions C17_protocol_on_match.
Print Assumptions C17_stale_pending_never_used.
Print Assumptions C17_custom_protocol.
Print Assumptions C17_handler_called_once_per_evaluation.
Print Assumptions C17_handler_result_used_by_copy.
Print Assumptions C17_identity_hooks_transparent.
Print Assumptions C17_identity_hooks_transparent_value.
Print Assumptions C17_identity_rewriters_transparent.
Print Assumptions C17_custom_inside_lookahead_consumed.

(* C09 — JSON snapshot and restore of variables is transparent.
   Statements proved by `exact lemma` (Proofs/JsonProofs.v), Print Assumptions, and evaluated
   examples.  Model: Model/Json.v. *)
From Coq Require Import String NArith ZArith List.
From DS Require Import Model.Json Proofs.JsonProofs.
Import ListNotations.
Open Scope string_scope.

(* the table the code uses today satisfies the agreement conditions (encoder ids = decoder ids,
   every VMType* constant reaches its own case, encoder keys match exactly the intended
   decoder fields) *)
Theorem C09_actual_table_ok : tags_ok actual_table = true.
Proof. exact actual_table_ok. Qed.

(* Every tree a script can build from ints, finite floats, strings, null, arrays, dicts,
   functions, computed values with attributes (and builtin native functions) serialises
   without error, and decoding the text gives a structurally equal value — for EVERY table
   satisfying tags_ok. *)
Theorem C09_json_roundtrip :
  forall T, tags_ok T = true ->
  forall v, tree_value T v = true -> finite_floats v = true ->
    exists j v', to_json T v = Some j /\ of_json T j = Some v' /\ equal T v v'.
Proof. exact json_roundtrip. Qed.

(* ... indeed the decoded value is exactly the original (same ids, same entry order) *)
Theorem C09_json_roundtrip_exact :
  forall T, tags_ok T = true ->
  forall v, tree_value T v = true -> finite_floats v = true ->
    exists l, to_json T v = Some (JObj l) /\ of_json T (JObj l) = Some (embed T v).
Proof. exact json_roundtrip_strong. Qed.

(* the same for a whole variable map: ValueMap.ToJSON then json.Unmarshal into a ValueMap *)
Theorem C09_map_roundtrip :
  forall T, tags_ok T = true ->
  forall m : list (string * value),
    forallb (fun kv => tree_value T (snd kv)) m = true -> nodup_keys m = true ->
    forallb (fun kv => finite_floats (snd kv)) m = true ->
    exists j, to_json_map T m = Some j /\
              of_json_map T j = Some (map (fun kv => (fst kv, embed T (snd kv))) m).
Proof. exact json_map_roundtrip. Qed.

(* a non-finite float anywhere in the tree: ToJSON reports an error (never a text) *)
Theorem C09_nonfinite_is_error :
  forall T v, finite_floats v = false -> to_json T v = None.
Proof. intros T. exact (nonfinite_is_error T). Qed.

(* Heap graphs (shared and cyclic structure).  ToJSONRaw with its pointer-keyed "current path"
   set never needs more than (number of wrappers + 1) nested calls ... *)
Theorem C09_to_json_terminates :
  forall T h w, to_json_graph_top T h w <> GFuel.
Proof. exact to_json_terminates. Qed.

(* ... and a cycle through an array, a dict or computed attributes anywhere below the root
   is reported as an error *)
Theorem C09_cycle_is_error :
  forall T h w x, reach h w x -> on_cycle h x -> to_json_graph_top T h w = GErr.
Proof. exact cycle_is_error. Qed.

Print Assumptions C09_actual_table_ok.
Print Assumptions C09_json_roundtrip.
Print Assumptions C09_json_roundtrip_exact.
Print Assumptions C09_map_roundtrip.
Print Assumptions C09_nonfinite_is_error.
Print Assumptions C09_to_json_terminates.
Print Assumptions C09_cycle_is_error.

Definition ex_value : value :=
  VDict [("a", VArr [VInt 1; VFloat 4617315517961601024; VStr "s"; VNull]);
         ("b", VComputed "d6" (Some [("x", VFunc "f" (Some ["n"]) "n+1")]));
         ("c", VNative "ceil"); ("e", VComputed "" None); ("g", VFunc "g" None "")].

Example C09_roundtrip_nonvacuous :
  tree_value actual_table ex_value = true /\ finite_floats ex_value = true /\
  match to_json actual_table ex_value with
  | Some j => of_json actual_table j = Some (embed actual_table ex_value)
  | None => False
  end.
Proof. vm_compute. repeat split; reflexivity. Qed.

Example C09_nonfinite_nonvacuous :
  finite_floats (VArr [VInt 1; VFloat 9218868437227405312]) = false.
Proof. vm_compute. reflexivity. Qed.

(* `a=[1]; a.push(a)`: wrapper 0 -> payload 0 = [wrapper 1; wrapper 2], wrapper 2 is the clone
   stored by push and points to payload 0 again *)
Definition h_self_array : heap :=
  {| wrappers := [WArr 0; WInt 1; WArr 0]; payloads := [PList [1; 2]] |}.
(* `m={}; m.x=m` *)
Definition h_self_dict : heap :=
  {| wrappers := [WDict 0; WDict 0]; payloads := [PMap [("x", 1)]] |}.
(* `&cv=1; &cv.x=&cv` *)
Definition h_self_computed : heap :=
  {| wrappers := [WComputed "1" (Some 0); WComputed "1" (Some 0)]; payloads := [PMap [("x", 1)]] |}.

Example C09_cycle_nonvacuous :
  (reach h_self_array 0 2 /\ on_cycle h_self_array 2) /\
  (reach h_self_dict 0 1 /\ on_cycle h_self_dict 1) /\
  (reach h_self_computed 0 1 /\ on_cycle h_self_computed 1) /\
  to_json_graph_top actual_table h_self_array 0 = GErr /\
  to_json_graph_top actual_table h_self_dict 0 = GErr /\
  to_json_graph_top actual_table h_self_computed 0 = GErr.
Proof.
  repeat split; try (vm_compute; reflexivity).
  - eapply reach_step; [|apply reach_refl]. simpl. right. left. reflexivity.
  - exists 2. split; [simpl; right; left; reflexivity | apply reach_refl].
  - eapply reach_step; [|apply reach_refl]. simpl. left. reflexivity.
  - exists 1. split; [simpl; left; reflexivity | apply reach_refl].
  - eapply reach_step; [|apply reach_refl]. simpl. left. reflexivity.
  - exists 1. split; [simpl; left; reflexivity | apply reach_refl].
Qed.

(* shared substructure is not a cycle: `a=[1]; b=[a,a]` (the same wrapper twice), a clone of
   the wrapper next to the original, and the same array below a dict and a computed attribute *)
Definition h_shared : heap :=
  {| wrappers := [WArr 0; WArr 1; WInt 1; WArr 1; WDict 2; WComputed "1" (Some 3)];
     payloads := [PList [1; 1; 3; 4; 5]; PList [2]; PMap [("k", 1)]; PMap [("x", 3)]] |}.

Example C09_shared_substructure_ok :
  match to_json_graph_top actual_table h_shared 0 with GOk _ => True | _ => False end.
Proof. vm_compute. exact I. Qed.

(* a mutant table is rejected: if the decoder looked for "lst", the agreement fails *)
Example C09_tags_ok_discriminates :
  tags_ok {| e_int := 0; e_float := 1; e_str := 2; e_null := 4; e_computed := 5; e_array := 6; e_dict := 7;
             e_func := 8; e_native := 9; e_nobj := 10;
             d_int := 0; d_float := 1; d_str := 2; d_null := 4; d_computed := 5; d_array := 6; d_dict := 7;
             d_func := 8; d_native := 9; d_nobj := 10;
             ek_t := "t"; ek_v := "v"; ek_cexpr := "expr"; ek_cattrs := "attrs"; ek_list := "list";
             ek_dict := "dict"; ek_fexpr := "expr"; ek_fname := "name"; ek_fparams := "params";
             ek_nname := "name"; ek_oname := "name";
             dk_t := "t"; dk_v := "v"; dk_cexpr := "expr"; dk_cattrs := "attrs"; dk_list := "lst";
             dk_dict := "dict"; dk_fexpr := "expr"; dk_fname := "name"; dk_fparams := "params";
             dk_nname := "name"; dk_oname := "name"; natives := [] |} = false.
Proof. vm_compute. reflexivity. Qed.

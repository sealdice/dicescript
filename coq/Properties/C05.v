(* C05 — dice are unbiased for every number of sides.
   The statements of the property, closed by the lemmas of Proofs/RollProofs.v (C05_roll_uniform puts
   three of them together); two concrete instances at the end. *)
From Coq Require Import NArith ZArith List.
From DS Require Import Model.PCG Model.Roll Proofs.RollProofs.
Open Scope N_scope.

(* every die lies in 1..n, for every supported size, every mode, every generator state *)
Theorem C05_roll_range :
  forall (fuel : nat) (d mode : Z) (s s' : pcg) (r : Z),
    (1 <= d <= MaxInt64 - 1)%Z ->
    roll_pcg fuel d mode s = Done (r, s') -> (1 <= r <= d)%Z.
Proof. intros fuel d mode s s' r. exact (roll_range pcg pcg_next pcg_next_word fuel d mode s r s'). Qed.
Print Assumptions C05_roll_range.

(* exact counting: the accepted 64-bit words mapping to face k are exactly
   { j*n + (k-1) | j < A/n }, pairwise distinct, where A = acc_bound n is a multiple of n.
   Hence every face 1..n has the same number A/n of accepted words. *)
Theorem C05_roll_uniform :
  forall n k v : N, 0 < n -> n <= MaxSides -> 1 <= k <= n ->
    acc_bound n = n * (acc_bound n / n) /\
    ((v < acc_bound n /\ face n v = k) <->
     (exists j, j < acc_bound n / n /\ v = j * n + (k - 1))) /\
    (forall j1 j2, j1 * n + (k - 1) = j2 * n + (k - 1) -> j1 = j2).
Proof.
  intros n k v Hn Hb Hk.
  assert (Hlt : n < W64) by (unfold MaxSides in Hb; rewrite W64_val; Lia.lia).
  split; [exact (acc_bound_multiple n Hn Hlt)|].
  split; [exact (face_preimages n k v Hn Hlt Hk)|].
  intros j1 j2. exact (face_preimage_unique n k j1 j2 Hn Hk).
Qed.
Print Assumptions C05_roll_uniform.

(* the code's pre-test `v > MaxUint64 - n` never changes the outcome *)
Theorem C05_fast_check_sound :
  forall n v : N, 0 < n -> n < W64 -> v <= MaxUint64 - n -> v < ceiling n.
Proof. exact fast_check_sound. Qed.
Print Assumptions C05_fast_check_sound.

(* more than half of all words are accepted: expected number of draws < 2 *)
Theorem C05_accept_more_than_half :
  forall n : N, 0 < n -> n <= MaxSides -> W64 < 2 * acc_bound n.
Proof. exact accept_more_than_half. Qed.
Print Assumptions C05_accept_more_than_half.

(* _roll64 on the PCG source returns the face of the FIRST accepted word of the
   stream, consuming exactly the words up to and including it *)
Theorem C05_roll_is_first_accepted :
  forall (fuel : nat) (n : N) (s : pcg), 0 < n -> n <= MaxSides ->
    roll64_u pcg_next fuel n s = map_face pcg n (first_accepted pcg_next fuel n s).
Proof. intros fuel n s. exact (roll64_u_first_accepted pcg pcg_next pcg_next_word fuel n s). Qed.
Print Assumptions C05_roll_is_first_accepted.

Theorem C05_first_accepted_consumes_prefix :
  forall (fuel : nat) (n : N) (s s' : pcg) (v : N),
    first_accepted pcg_next fuel n s = Done (v, s') ->
    exists k, (k <= fuel)%nat /\ s' = iter_next pcg pcg_next (S k) s /\
              v = fst (pcg_next (iter_next pcg pcg_next k s)) /\
              forall j, (j < k)%nat -> accepted n (fst (pcg_next (iter_next pcg pcg_next j s))) = false.
Proof. intros fuel n s s' v. exact (first_accepted_prefix pcg pcg_next fuel n s v s'). Qed.
Print Assumptions C05_first_accepted_consumes_prefix.

(* the generator: the two-word code is the 128-bit LCG (that states stay 64+64 bit and that
   marshalling round-trips is in C06) *)
Theorem C05_pcg_is_lcg128 :
  forall s, pcg_wf s -> pcg_val (pcg_step s) = (pcg_val s * multiplier + increment) mod W128.
Proof. exact pcg_step_is_lcg128. Qed.
Print Assumptions C05_pcg_is_lcg128.

Theorem C05_minmax_modes_draw_nothing :
  forall fuel d s,
    roll_pcg fuel d (-1) s = Done ((if (d =? 0)%Z then 0 else 1)%Z, s) /\
    roll_pcg fuel d 1 s = Done (d, s).
Proof. intros fuel d s. exact (roll_minmax_consumes_nothing pcg pcg_next fuel d s). Qed.
Print Assumptions C05_minmax_modes_draw_nothing.

(* stated boundary: the largest int64 is not a usable size (the code answers 0) *)
Theorem C05_maxint_is_unsupported :
  forall fuel s, roll_pcg fuel MaxInt64 0 s = Done (0%Z, s).
Proof. intros fuel s. exact (roll_maxint_returns_zero pcg pcg_next fuel s). Qed.
Print Assumptions C05_maxint_is_unsupported.

(* non-vacuity: concrete instances of the hypotheses / a concrete run *)
Example C05_nonvacuous_range :
  exists r s', roll_pcg 8 6%Z 0%Z {| hi := 1; lo := 2 |} = Done (r, s') /\ (1 <= r <= 6)%Z.
Proof. vm_compute. eexists; eexists; split; [reflexivity|]. split; discriminate. Qed.

Example C05_nonvacuous_rejection :
  (* a word >= ceiling 3 is rejected, a word below is accepted *)
  accepted 3 (W64 - 1) = false /\ accepted 3 (W64 - 2) = true /\ acc_bound 3 / 3 = 6148914691236517205.
Proof. vm_compute. repeat split. Qed.

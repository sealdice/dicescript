(* C03 — Matched/RestInput contract.  The general statements are proved in Proofs/; the refutation and the
   example at the end are evaluated here. *)
From Coq Require Import NArith List Bool.
From DS Require Import Model.Matched Proofs.MatchedProofs Model.Peg Corr.CorrK1 Proofs.PegBounds.
Import ListNotations.

(* Matched followed by RestInput is exactly the input — for every input and every offset the parser may end at *)
Theorem C03_matched_rest_split : forall input offset, matched input offset ++ rest input offset = input.
Proof. exact matched_rest_split. Qed.

(* ... and the offset the PEG interpreter ends at never exceeds the input length — for EVERY grammar, action table,
   custom-dice matcher (even one that claims more text than there is), flag setting, fuel and input — so the split above
   applies to what the parser really does: data[:offset] is a legal slice, Matched is a prefix of the input of at most
   `offset` bytes and RestInput is the rest. *)
Theorem C03_parse_offset_le_length :
  forall (cmatch : N -> option N) rules classes acts preds fuel fl bytes,
  (r_off (parse_custom cmatch rules classes acts preds fuel fl bytes) <= N.of_nat (length bytes))%N.
Proof. exact parse_offset_le_length. Qed.

Theorem C03_parse_matched_rest_split :
  forall cmatch rules classes acts preds fuel fl bytes,
  let o := N.to_nat (r_off (parse_custom cmatch rules classes acts preds fuel fl bytes)) in
  (o <= length bytes)%nat /\
  length (firstn o bytes) = o /\
  matched bytes o ++ rest bytes o = bytes /\
  (length (matched bytes o) <= o)%nat /\
  (length (matched bytes o) <= length bytes)%nat /\
  exists k, (k <= o)%nat /\ matched bytes o = firstn k bytes /\ rest bytes o = skipn k bytes.
Proof. exact parse_matched_rest_split. Qed.

(* Matched is a prefix of the input that ends at or before the parser's final offset *)
Theorem C03_matched_is_prefix :
  forall input offset, exists k, (k <= offset)%nat /\ (k <= length input)%nat /\ matched input offset = firstn k input.
Proof. exact matched_is_prefix. Qed.

(* Matched carries no trailing white space (unicode.IsSpace) *)
Theorem C03_matched_has_no_trailing_space :
  forall input offset, let '(r, size) := decode_last (matched input offset) in size = 0%nat \/ is_space r = false.
Proof. exact matched_has_no_trailing_space. Qed.

(* trimming Matched again changes nothing *)
Theorem C03_trim_idempotent : forall l, rtrim (rtrim l) = rtrim l.
Proof. exact rtrim_idempotent. Qed.

Print Assumptions C03_matched_rest_split.
Print Assumptions C03_matched_is_prefix.
Print Assumptions C03_matched_has_no_trailing_space.
Print Assumptions C03_trim_idempotent.

(* The positive half — "text given back to RestInput contributes nothing" — is FALSE of the faithful
   parser model: actions run while parsing and are not rolled back when an alternative is abandoned.
   Witness: "5\n{'a':1" is accepted with offset 1 (Matched = "5"), yet the opcodes emitted while
   parsing the whole input include push.str (opcode 2), which parsing "5" alone never emits.
   The same input misbehaves on the implementation (result 1 instead of 5): recorded finding. *)
Definition w_input : list N := [53; 10; 123; 39; 97; 39; 58; 49].
Definition all_on : list bool := [true; true; true; true; false; false; false].
Theorem C03_tail_contribution_refuted :
  let r := run_model all_on w_input in
  let m := matched w_input (N.to_nat (r_off r)) in
  r_ok r = true /\ r_errs r = 0%N /\ m = [53%N] /\
  mem_N 2 (r_emitted r) = true /\ mem_N 2 (r_emitted (run_model all_on m)) = false.
Proof. vm_compute. repeat split. Qed.
Print Assumptions C03_tail_contribution_refuted.

Example C03_nonvacuous : matched [49; 43; 50; 32; 227; 128; 128; 41]%N 7 = [49; 43; 50]%N.
Proof. vm_compute. reflexivity. Qed.
Print Assumptions C03_parse_offset_le_length.
Print Assumptions C03_parse_matched_rest_split.

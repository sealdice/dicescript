(* C10 — deserialising untrusted or outdated JSON never yields a booby-trapped value.
   Statements proved by `exact lemma` (Proofs/JsonProofs.v), Print Assumptions, and evaluated
   examples.  Model: Model/Json.v (decoder modelled
   branch by branch over ARBITRARY JSON ASTs; raw values can express nil pointers, a tag without
   payload and tag/payload mismatches). *)
From Coq Require Import String NArith ZArith List.
From DS Require Import Model.Json Proofs.JsonProofs.
Import ListNotations.
Open Scope string_scope.

(* Whatever the document — missing, extra, ill-typed, null or duplicated fields, unknown type
   ids (incl. the internal 20 / 21), unknown native names, null elements or entries — if
   VMValueFromJSON does not return an error, the value is well-formed: the dynamic type of
   Value agrees with TypeId, no array element / dict entry / attribute is nil, a native
   function is one of the builtins, ints are int64, floats are finite, map keys are unique.
   Holds for EVERY tag table. *)
Theorem C10_of_json_wf :
  forall T j v, of_json T j = Some v -> wf T v = true.
Proof. exact of_json_wf. Qed.

(* the same for json.Unmarshal into a ValueMap (restoring variables) *)
Theorem C10_of_json_map_wf :
  forall T j m, of_json_map T j = Some m -> wf_map T m = true.
Proof. exact of_json_map_wf. Qed.

(* On a well-formed value the modelled observers — ToString/ToRepr, AsBool, ToJSON, ValueEqual in
   both argument positions — never reach a failed type assertion or a nil dereference. *)
Theorem C10_wf_no_trap :
  forall T, tags_ok T = true ->
  forall r, wf T r = true ->
    notrap (r_to_string T r) /\ notrap (r_truthy T r) /\ notrap (r_to_json T r) /\
    (forall r2, wf T r2 = true -> notrap (r_equal T r r2) /\ notrap (r_equal T r2 r)).
Proof. exact wf_no_trap. Qed.

(* together: a decoded value is never a trap for these observers *)
Theorem C10_decoded_no_trap :
  forall T, tags_ok T = true ->
  forall j v, of_json T j = Some v ->
    notrap (r_to_string T v) /\ notrap (r_truthy T v) /\ notrap (r_to_json T v) /\ notrap (r_equal T v v).
Proof. exact decoded_no_trap. Qed.

Print Assumptions C10_of_json_wf.
Print Assumptions C10_of_json_map_wf.
Print Assumptions C10_wf_no_trap.
Print Assumptions C10_decoded_no_trap.

(* the decoder accepts plenty, including sloppy documents *)
Example C10_accepts_sloppy :
  of_json actual_table (JObj [("T", JInt 6); ("zz", JBool true);
                              ("V", JObj [("LIST", JArr [JObj [("t", JInt 4)]; JObj []; JNull])])]) = None /\
  of_json actual_table (JObj [("T", JInt 6); ("zz", JBool true);
                              ("V", JObj [("LIST", JArr [JObj [("t", JInt 4)]; JObj []])])])
  = Some (RArr 6 [RNone 4; RInt 0 0]) /\
  of_json actual_table JNull = Some (RInt 0 0) /\
  of_json actual_table (JObj [("t", JInt 1); ("v", JInt 5)]) = Some (RFloat 1 4617315517961601024).
Proof. vm_compute. repeat split; reflexivity. Qed.

(* the predicate is not trivially true: ill-formed raw values exist and they do trap *)
Example C10_traps_exist :
  wf actual_table (RNone 9) = false /\ r_to_string actual_table (RNone 9) = Trap /\
  wf actual_table (RArr 6 [RNil]) = false /\ r_truthy actual_table RNil = Trap /\
  wf actual_table (RInt 6 1) = false /\ r_to_json actual_table (RInt 6 1) = Trap /\
  r_equal actual_table (RNone 7) (RNone 7) = Trap.
Proof. vm_compute. repeat split; reflexivity. Qed.

(* the checks of the decoder are what makes the theorem true: a decoder that builds the value
   without them, on the two document shapes below, returns an ill-formed one *)
Definition dec_value_unchecked (T : json_tags) (j : json) : option rvalue :=
  match j with
  | JObj [(_, JInt t); (_, JObj [(_, JStr n)])] => if (t =? d_native T)%Z then Some (RNone t) else None
  | JObj [(_, JInt t); (_, JObj [(_, JArr [JNull])])] => if (t =? d_array T)%Z then Some (RArr t [RNil]) else None
  | _ => None
  end.

Example C10_checks_are_necessary :
  exists j v, dec_value_unchecked actual_table j = Some v /\ wf actual_table v = false /\
              of_json actual_table j = None.
Proof.
  exists (JObj [("t", JInt 9); ("v", JObj [("name", JStr "nosuch")])]), (RNone 9).
  vm_compute. repeat split; reflexivity.
Qed.

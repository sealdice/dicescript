(* C06 — seeded evaluation is reproducible and resumable. *)
From Coq Require Import NArith ZArith List Bool String.
From DS Require Import Model.PCG Model.Roll Proofs.RollProofs Model.Conc Gen.Globals Corr.Corr06.
Import ListNotations.

(* GetCurSeed then UnmarshalBinary gives back exactly the generator state *)
Theorem C06_seed_roundtrip : forall s, pcg_wf s -> pcg_unmarshal (pcg_marshal s) = Some s.
Proof. exact pcg_marshal_roundtrip. Qed.

(* a generator state captured and installed in a fresh source continues the identical sequence, for any number of draws *)
Theorem C06_resume :
  forall k s, pcg_wf s ->
    match pcg_unmarshal (pcg_marshal s) with Some s' => pcg_draws k s' = pcg_draws k s | None => False end.
Proof. exact pcg_resume. Qed.

(* drawing a words and then b words (e.g. across a save/restore point) is drawing a+b words *)
Theorem C06_draws_compose :
  forall a b s, pcg_draws (a + b) s =
    let '(v1, s1) := pcg_draws a s in let '(v2, s2) := pcg_draws b s1 in ((v1 ++ v2)%list, s2).
Proof. exact pcg_draws_app. Qed.

(* the captured seed is always 16 bytes; shorter seed material is rejected (Init then keeps the zero state: Corr06.init_from_seed) *)
Theorem C06_cur_seed_is_16_bytes : forall s, List.length (pcg_marshal s) = 16%nat.
Proof. exact pcg_marshal_length. Qed.
Theorem C06_short_seed_rejected : forall d, (List.length d < 16)%nat -> pcg_unmarshal d = None.
Proof. exact pcg_unmarshal_short. Qed.

(* a step leaves two 64-bit words: every state after at least one draw can be captured and restored *)
Theorem C06_states_wellformed : forall s, pcg_wf (pcg_step s).
Proof. exact pcg_step_wf. Qed.

(* min / max mode never touch the generator *)
Theorem C06_modes_consume_nothing :
  forall fuel d s, roll_pcg fuel d (-1) s = Done ((if (d =? 0)%Z then 0 else 1)%Z, s) /\ roll_pcg fuel d 1 s = Done (d, s).
Proof. intros fuel d s. exact (roll_minmax_consumes_nothing pcg pcg_next fuel d s). Qed.

(* on the footprint table regenerated from /repo: the package-level generator is touched only by the
   nil-source fallback of Roll and by GetCurSeed (both under the mutex), and no package-level
   math/rand function is called anywhere: all randomness a script can reach goes through the
   source handed to Roll, i.e. the context's generator when one is set *)
Theorem C06_package_generator_confined : rand_source_confined uses = true /\ rand_calls = [].
Proof. split; [vm_compute|]; reflexivity. Qed.

Print Assumptions C06_seed_roundtrip.
Print Assumptions C06_resume.
Print Assumptions C06_draws_compose.
Print Assumptions C06_cur_seed_is_16_bytes.
Print Assumptions C06_short_seed_rejected.
Print Assumptions C06_states_wellformed.
Print Assumptions C06_modes_consume_nothing.
Print Assumptions C06_package_generator_confined.

Example C06_nonvacuous : pcg_wf (init_from_seed [1;2;3;4;5;6;7;8;9;10;11;12;13;14;15;16]%N).
Proof. vm_compute. split; reflexivity. Qed.

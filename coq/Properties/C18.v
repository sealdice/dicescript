(* C18 — the st command reports every attribute edit once, in order, verbatim.
   Statements, each a lemma of Proofs/StProofs.v or a pair of them, Print Assumptions, and
   evaluated examples.

   VM half (proved for ALL edit lists): the code the st_* grammar actions emit for an edit list
   (`compile_st`, tied to the real parser by the projected-code correspondence) run by the four st.*
   cases of the VM (`st_exec`, tied by the callback-log correspondence) calls CallbackSt once per
   edit, in source order, with the written name, the evaluated value (negated for `name-expr`), the
   operator (`+=` reported as `+`), the factor of `*k` as extra — and no callback exists without its
   own st.* instruction.  The splitting of the text into names and values is the grammar's business:
   validated by search and by the K1 correspondence, not proved. *)
From Coq Require Import NArith ZArith List Bool.
From DS Require Import Model.Str Model.St Proofs.StProofs.
Import ListNotations.
Open Scope N_scope.

(* once each, in source order, name verbatim, value evaluated, `-` sign-normalised, `-=` and `+`
   untouched, `+=` reported as `+`, extra for `*k` (all of it is `callback_of`) *)
Theorem C18_st_trace : forall edits,
  all_negatable edits -> st_run (compile_st edits) = Some (map callback_of edits).
Proof. exact st_trace. Qed.
Print Assumptions C18_st_trace.

(* the same inside any program: whatever is below on the stack is neither read nor changed, the log
   so far is only extended *)
Theorem C18_st_trace_framed : forall edits rest stk log,
  all_negatable edits ->
  st_exec (compile_st edits ++ rest) stk (rev log) = st_exec rest stk (rev (log ++ map callback_of edits)).
Proof. exact st_trace_framed. Qed.
Print Assumptions C18_st_trace_framed.

(* nothing else: on ANY code, a successful run reports exactly one callback per st.* instruction … *)
Theorem C18_st_nothing_else : forall code log,
  st_run code = Some log -> length log = count_st code.
Proof. exact st_nothing_else. Qed.
Print Assumptions C18_st_nothing_else.

(* … in instruction order, each with the type / op / text its instruction fixes; a failed run
   reports a prefix of them *)
Theorem C18_st_signatures : forall code,
  (forall log, st_run code = Some log -> map cb_sig log = st_sigs code) /\
  (forall l, st_exec code [] [] = Failed l -> exists k, map cb_sig l = firstn k (st_sigs code)).
Proof. intro code. split; [exact (st_signatures code)|exact (st_failed_prefix code)]. Qed.
Print Assumptions C18_st_signatures.

(* and the code of an edit list has one st.* instruction per edit *)
Theorem C18_one_instruction_per_edit : forall edits, count_st (compile_st edits) = length edits.
Proof. exact count_st_compile. Qed.
Print Assumptions C18_one_instruction_per_edit.

(* a `name-expr` edit whose value has no negation is an error: the edits before it are reported, it
   and everything after it are not *)
Theorem C18_not_negatable_is_error :
  (forall edits, ~ all_negatable edits -> st_run (compile_st edits) = None) /\
  (forall es1 n v t es2, all_negatable es1 -> neg v = None ->
     st_exec (compile_st (es1 ++ EMod OpSub n v t :: es2)) [] [] = Failed (map callback_of es1)).
Proof. split; [exact st_not_negatable_is_error|exact st_not_negatable_stops]. Qed.
Print Assumptions C18_not_negatable_is_error.

(* `^stA*2:3 B-4d1+2 C+=5` in model terms: names "A" "B" "C"; B's captured text "-4d1+2" has value -2 *)
Definition ex_edits : list edit :=
  [ESetX1 [65] (SInt 2) (SInt 3); EMod OpSub [66] (SInt (-2)) [45;52;100;49;43;50]; EMod OpAddEq [67] (SInt 5) [53];
   EComputed [68] [49;100;54]].

Example C18_nonvacuous_trace :
  all_negatable ex_edits /\
  st_run (compile_st ex_edits) =
  Some [mkCb t_x1 [65] (SInt 3) (Some (SInt 2)) [] [];
        mkCb t_mod [66] (SInt 2) None s_minus [45;52;100;49;43;50];
        mkCb t_mod [67] (SInt 5) None s_plus [53];
        mkCb t_set [68] (SComputed [49;100;54]) None [] []].
Proof. split; [repeat constructor|reflexivity]. Qed.

(* st.x1 pops value, extra, name — a different order would swap them *)
Example C18_nonvacuous_pop_order :
  st_run [IPushName [65]; IPushExtra (SInt 2); IPushVal (SInt 3); IStX1] =
  Some [mkCb t_x1 [65] (SInt 3) (Some (SInt 2)) [] []] /\
  st_run [IPushName [65]; IPushVal (SInt 3); IPushExtra (SInt 2); IStX1] <>
  Some [mkCb t_x1 [65] (SInt 3) (Some (SInt 2)) [] []].
Proof. split; [reflexivity|vm_compute; discriminate]. Qed.

(* `-=` is not sign-normalised, `-` is; the sign bit of a float is flipped *)
Example C18_nonvacuous_sign :
  callback_of (EMod OpSubEq [65] (SInt 3) [51]) = mkCb t_mod [65] (SInt 3) None s_minuseq [51] /\
  callback_of (EMod OpSub [65] (SInt (-3)) [45;51]) = mkCb t_mod [65] (SInt 3) None s_minus [45;51] /\
  neg (SFloatBits 4609434218613702656) = Some (SFloatBits 13832806255468478464).
Proof. repeat split. Qed.

(* `^st力量+1 敏捷-1&&'a' 体质+3` in model terms: the second value is a string *)
Example C18_nonvacuous_not_negatable :
  let es := [EMod OpAdd [65] (SInt 1) [49]; EMod OpSub [66] (SStr [97]) [45;49]; EMod OpAdd [67] (SInt 3) [51]] in
  ~ all_negatable es /\ st_run (compile_st es) = None /\
  st_exec (compile_st es) [] [] = Failed [mkCb t_mod [65] (SInt 1) None s_plus [49]].
Proof.
  cbv zeta. split; [|split; reflexivity].
  intro H. inversion H as [|? ? _ H2]. inversion H2 as [|? ? H3 _]. discriminate H3.
Qed.

(* code that is not the code of an edit list: an empty stack is an error, the spurious callback with
   null arguments still counts against its instruction *)
Example C18_nonvacuous_underflow :
  st_run [IStSet] = None /\ st_exec [IStSet] [] [] = Failed [mkCb t_set [] SNull None [] []] /\
  st_run [IPushName [65]; IPushVal (SInt 1); IStSet; IPushVal (SInt 7)] = Some [mkCb t_set [65] (SInt 1) None [] []] /\
  count_st [IPushName [65]; IPushVal (SInt 1); IStSet; IPushVal (SInt 7)] = 1%nat.
Proof. repeat split. Qed.

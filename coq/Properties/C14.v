(* C14 — the calculation-process text explains the result; observing it is harmless.
   The statements of the property, each closed by the lemma that proves it; three examples on real
   texts at the end. *)
From Coq Require Import String Ascii NArith ZArith List Bool Sorted.
From DS Require Import Model.PCG Model.Roll Model.Str Model.Dice Model.Detail Proofs.DiceProofs Proofs.DetailProofs Proofs.PoolText.
Import ListNotations.
Open Scope nat_scope.
Open Scope string_scope.

(* makeDetailStr never panics, whatever the span list is (spans outside the matched text are skipped, which keeps every slice in range) *)
Theorem C14_detail_no_panic data offset spans ret :
  offset <= String.length data -> make_detail_res data offset spans ret <> DPanic.
Proof. exact (make_detail_no_panic data offset spans ret). Qed.

(* the text = matched source with each top-level group [b,e) replaced by value ++ annotation (everything else byte
   identical; annotations read from the ORIGINAL source), then trimmed / emptied by the final rule; the groups lie
   inside the matched text, are strictly separated, in source order, and partition the recorded spans *)
Theorem C14_detail_shape data offset spans ret :
  offset <= String.length data -> wf_spans offset spans ->
  let src := stake offset data in
  let gs := groups_of offset spans in
  make_detail data offset spans ret = finish (splice src 0 (map (replacement (length gs) src) gs)) ret /\
  Forall (group_ok (Z.of_nat offset)) gs /\ sep_fwd gs /\ concat (map g_spans gs) = spans.
Proof. exact (detail_shape data offset spans ret). Qed.

(* the same equation for ARBITRARY span lists (spans outside the matched text are skipped) *)
Theorem C14_detail_shape_all data offset spans ret :
  offset <= String.length data ->
  let src := stake offset data in
  let gs := groups_of offset spans in
  make_detail_res data offset spans ret = DText (finish (splice src 0 (map (replacement (length gs) src) gs)) ret).
Proof. exact (detail_shape_all data offset spans ret). Qed.

(* deleting the annotations leaves the source with each top-level roll replaced by its value
   (bracket-free source and span fields: the fragment) *)
Theorem C14_strip_is_source_with_values data offset spans :
  let src := stake offset data in
  let gs := groups_of offset spans in
  nobr src = true -> Forall span_clean spans ->
  strip_annotations (splice src 0 (map (replacement (length gs) src) gs)) = splice src 0 (map value_only gs).
Proof. exact (strip_is_source_with_values data offset spans). Qed.

(* the annotation of a dice roll: value[source=dice text]; [source] alone when the dice text is the value (rule 1.1);
   nothing when that roll is the whole input (rule 1.3); [略] above 400 bytes *)
Theorem C14_annotation_format rd n b e num txt tag :
  tag <> "load" -> tag <> "load.computed" ->
  let base := rd (Z.to_nat b) (Z.to_nat e) in
  let body := if nonempty txt && negb (String.eqb (show_Z num) txt) then base ++ "=" ++ txt else base in
  let d3 := "[" ++ body ++ "]" in
  let d4 := if Nat.eqb n 1 && String.eqb d3 ("[" ++ base ++ "]") then "" else d3 in
  group_ret (dice_group b e num txt tag) = show_Z num /\
  annotation_with rd n (dice_group b e num txt tag) = if Nat.ltb 400 (String.length d4) then "[略]" else d4.
Proof. exact (dice_annotation_format rd n b e num txt tag). Qed.

Section Source.
  Variable S : Type.
  Variable next : S -> N * S.
  Hypothesis next_word : forall s, (fst (next s) < W64)%N.
  Open Scope Z_scope.

(* the number before the bracket is the total of the dice listed inside, and the listing determines it *)
Theorem C14_annotation_total fuel times d dmin dmax keep lo hi mode s num txt s' :
    0 <= times -> 1 <= d <= MaxInt64 - 1 ->
    roll_common next fuel times d dmin dmax keep lo hi mode s = Done ((num, txt), s') ->
    let pick := pick_num times keep lo hi in
    exists shown : list Z,
      Z.of_nat (length shown) = times /\ 0 <= pick <= times /\
      txt = common_text times pick shown /\
      num = sum64 (firstn (Z.to_nat pick) shown) /\
      (forall shown' pick', 0 <= pick' <= times -> Z.of_nat (length shown') = times ->
         common_text times pick' shown' = txt ->
         shown' = shown /\ pick' = pick /\ sum64 (firstn (Z.to_nat pick') shown') = num).
Proof. exact (annotation_total_common S next next_word fuel times d dmin dmax keep lo hi mode s num txt s'). Qed.

Theorem C14_annotation_total_fate fuel mode s sum txt s' :
    roll_fate next fuel mode s = Done ((sum, txt), s') ->
    String.length txt = 4%nat /\ Forall fate_char (list_ascii_of_string txt) /\
    sum = count_char "+" txt - count_char "-" txt.
Proof. exact (annotation_total_fate S next next_word fuel mode s sum txt s'). Qed.

Theorem C14_annotation_total_coc fuel isBonus diceNum mode s num txt s' :
    0 <= diceNum ->
    roll_coc next fuel isBonus diceNum mode s = Done ((num, txt), s') ->
    exists (res : Z) (digits : list Z),
      txt = ("(D100=" ++ show_Z res ++ (if isBonus then ",奖励" else ",惩罚") ++ join " " (map show_Z digits) ++ ")")%string /\
      Z.of_nat (length digits) = diceNum /\
      (let u := res mod 10 in
       let t0 := (res / 10) mod 10 in
       num = (if isBonus
              then fold_right Z.min (coc_val t0 u) (map (fun c => coc_val c u) digits)
              else fold_right Z.max (coc_val t0 u) (map (fun c => coc_val c u) digits))).
Proof. exact (annotation_total_coc S next next_word fuel isBonus diceNum mode s num txt s'). Qed.

(* WoD / Double Cross, header only, for any parameters: the value is the first counter of the text's header; that the
   displayed rounds recount to it needs the parameter checks: C14_wod_text_recounts / C14_dc_text_recounts below *)
Theorem C14_annotation_total_wod_partial rfuel fuel addLine pool points threshold isGE mode s succ all rounds txt s' :
    roll_wod next rfuel fuel addLine pool points threshold isGE mode s = Done ((succ, all, rounds, txt), s') ->
    exists tail, txt = ("成功" ++ show_Z succ ++ "/" ++ show_Z all ++ tail)%string.
Proof. exact (annotation_total_wod_header S next rfuel fuel addLine pool points threshold isGE mode s succ all rounds txt s'). Qed.

Theorem C14_annotation_total_dc_partial rfuel fuel addLine pool points mode s result all rounds txt s' :
    roll_dc next rfuel fuel addLine pool points mode s = Done ((result, all, rounds, txt), s') ->
    exists head tail, txt = (head ++ "出目" ++ show_Z result ++ "/" ++ show_Z all ++ tail)%string /\ (head = "" \/ head = "大失败 ").
Proof. exact (annotation_total_dc_header S next rfuel fuel addLine pool points mode s result all rounds txt s'). Qed.
(* WoD / Double Cross IN FULL (Proofs/PoolText.v): the text is exactly the rendering of the SAME rounds `rs` that the counting
   rule of C04 speaks about — header 成功succ/all resp. [大失败 ]出目result/all, " 轮数:n" when n > 1, then every round in
   braces, every die in order, `*` after a success, `<...>` around a die that reaches the add-line (re-rolled in the next
   round).  Elision is all-or-nothing: no die is listed when the first pool has 15 or more dice or the running total of
   dice ever exceeds 100 (`pool_displayed`); the header is printed in every case. *)
Theorem C14_annotation_total_wod rfuel fuel addLine pool points threshold isGE mode s succ all rounds txt s' :
    wod_check addLine pool points threshold = true -> points <= MaxInt64 - 1 ->
    roll_wod next rfuel fuel addLine pool points threshold isGE mode s = Done ((succ, all, rounds, txt), s') ->
    exists rs : list (list Z),
      1 <= pool <= 20000 /\
      round_chain (wod_reach addLine) (Z.to_nat pool) rs /\
      Forall (Forall (fun x => 1 <= x <= points)) rs /\
      succ = countZ (wod_succ threshold isGE) (concat rs) /\
      rounds = Z.of_nat (length rs) /\
      (Z.of_nat (length (concat rs)) < two63 -> all = Z.of_nat (length (concat rs))) /\
      (length rs <= rfuel)%nat /\
      txt = wod_render addLine threshold isGE pool succ all rounds rs.
Proof. exact (roll_wod_text S next next_word rfuel fuel addLine pool points threshold isGE mode s succ all rounds txt s'). Qed.

Theorem C14_annotation_total_dc rfuel fuel addLine pool points mode s result all rounds txt s' :
    dc_check addLine pool points = true -> points <= MaxInt64 - 1 ->
    roll_dc next rfuel fuel addLine pool points mode s = Done ((result, all, rounds, txt), s') ->
    exists rs : list (list Z),
      1 <= pool <= 20000 /\
      round_chain (dc_reach addLine) (Z.to_nat pool) rs /\
      Forall (Forall (fun x => 1 <= x <= points)) rs /\
      rounds = Z.of_nat (length rs) /\
      (Z.of_nat (length (concat rs)) < two63 -> all = Z.of_nat (length (concat rs))) /\
      result = fold_left (fun a r => wrap64 (a + dc_round_max addLine r)) rs 0 /\
      (points <= 10 -> 10 * rounds < two63 -> result = 10 * (rounds - 1) + dice_max (last rs [])) /\
      (length rs <= rfuel)%nat /\
      txt = dc_render addLine pool result all rounds rs.
Proof. exact (roll_dc_text S next next_word rfuel fuel addLine pool points mode s result all rounds txt s'). Qed.

(* the displayed dice recount to the result: ANY reading of the text as header + listed rounds is the actual roll — the
   listed rounds form the legal chain, the value is the number of listed dice meeting the threshold, the totals are the
   totals; dice are listed only when pool < 15 and all <= 100 *)
Theorem C14_wod_text_recounts rfuel fuel addLine pool points threshold isGE mode s succ all rounds txt s' :
    wod_check addLine pool points threshold = true -> points <= MaxInt64 - 1 ->
    roll_wod next rfuel fuel addLine pool points threshold isGE mode s = Done ((succ, all, rounds, txt), s') ->
    forall succ' all' rounds' rs',
      1 <= rounds' ->
      txt = pool_text "成功" succ' all' rounds' (Some (rounds_text (wod_die_text addLine threshold isGE) rs')) ->
      succ' = succ /\ all' = all /\ rounds' = rounds /\
      round_chain (wod_reach addLine) (Z.to_nat pool) rs' /\
      Forall (Forall (fun x => 1 <= x <= points)) rs' /\
      succ = countZ (wod_succ threshold isGE) (concat rs') /\
      all = Z.of_nat (length (concat rs')) /\
      rounds = Z.of_nat (length rs') /\
      pool < 15 /\ all <= 100.
Proof. exact (roll_wod_recount S next next_word rfuel fuel addLine pool points threshold isGE mode s succ all rounds txt s'). Qed.

Theorem C14_dc_text_recounts rfuel fuel addLine pool points mode s result all rounds txt s' :
    dc_check addLine pool points = true -> points <= MaxInt64 - 1 ->
    roll_dc next rfuel fuel addLine pool points mode s = Done ((result, all, rounds, txt), s') ->
    forall result' all' rounds' rs',
      1 <= rounds' ->
      txt = (if result' =? 1 then "大失败 " else "") ++
            pool_text "出目" result' all' rounds' (Some (rounds_text (dc_die_text addLine) rs')) ->
      result' = result /\ all' = all /\ rounds' = rounds /\
      round_chain (dc_reach addLine) (Z.to_nat pool) rs' /\
      Forall (Forall (fun x => 1 <= x <= points)) rs' /\
      result = fold_left (fun a r => wrap64 (a + dc_round_max addLine r)) rs' 0 /\
      (points <= 10 -> result = 10 * (rounds - 1) + dice_max (last rs' [])) /\
      all = Z.of_nat (length (concat rs')) /\
      rounds = Z.of_nat (length rs') /\
      pool < 15 /\ all <= 100.
Proof. exact (roll_dc_recount S next next_word rfuel fuel addLine pool points mode s result all rounds txt s'). Qed.
End Source.

(* the stripped text evaluates to the value of the expression: for EVERY well-formed fragment expression (integer literals,
   rolls printed as their values, unary signs, parentheses, + - *, arbitrary blanks), printing it and evaluating the text
   gives the value of the expression — a printer / evaluator round trip proved by induction (Proofs/DetailProofs.v
   round_trip), no bound on size or depth.  On the texts Go produces the same evaluator runs inside Coq (Corr14.c14_eval_ok). *)
Definition C14_strip_evaluates_statement : Prop := strip_evaluates_statement.
Theorem C14_strip_evaluates :
  forall e : aexp, prec_ok e = true -> eval_arith (aprint e) = Some (avalue e).
Proof. exact strip_evaluates. Qed.

(* requesting the text twice gives the same text; result, variables, generator state, source and spans are not
   touched (only the cache is); right after Parse the text is a function of (data, offset, spans, ret) alone *)
Theorem C14_detail_pure {V R} (st : vmstate V R) :
  let '(t, st') := get_detail_text_vm st in
  vm_ret st' = vm_ret st /\ vm_vars st' = vm_vars st /\ vm_rng st' = vm_rng st /\
  vm_data st' = vm_data st /\ vm_offset st' = vm_offset st /\ vm_spans st' = vm_spans st /\
  get_detail_text_vm st' = (t, st') /\
  (vm_cache st = "" -> t = match vm_spans st with [] => "" | _ => make_detail (vm_data st) (vm_offset st) (vm_spans st) (vm_ret st) end).
Proof. exact (get_detail_text_vm_pure st). Qed.

Theorem C14_detail_idempotent data offset spans ret cache :
  let '(t1, c1) := get_detail_text data offset spans ret cache in
  let '(t2, c2) := get_detail_text data offset spans ret c1 in
  t2 = t1 /\ c2 = c1.
Proof. exact (get_detail_text_idem data offset spans ret cache). Qed.

(* non-vacuity on a real dump: `x1 = 5` then `(2d6)d4 + 3*f - x1` (harness c14-src, seed 5) *)
Example C14_nonvacuous_shape :
  make_detail ex_src 18 ex_spans "14" = ex_go_text /\ wf_spans 18 ex_spans /\ length (groups_of 18 ex_spans) = 3.
Proof. exact ex_shape. Qed.
Example C14_nonvacuous_strip :
  nobr (stake 18 ex_src) = true /\ Forall span_clean ex_spans /\
  strip_annotations ex_go_text = "19 + 3*0 - 5" /\ eval_arith (strip_annotations ex_go_text) = Some 14%Z.
Proof. exact ex_strip. Qed.
(* a roll that is the whole input gets no annotation and the text is emptied by the final rule; with
   blanks around it the annotation stays and the text is trimmed *)
Example C14_nonvacuous_elision_and_empty :
  make_detail "d10" 3 [mkSpan 0 3 "3" "3" "" "dice" false ""] "3" = "" /\
  make_detail " 2d6 " 5 [mkSpan 1 4 "7" "3+4" "" "dice" false ""] "7" = "7[2d6=3+4]".
Proof. exact ex_small. Qed.

Print Assumptions C14_detail_no_panic.
Print Assumptions C14_detail_shape.
Print Assumptions C14_detail_shape_all.
Print Assumptions C14_strip_is_source_with_values.
Print Assumptions C14_annotation_format.
Print Assumptions C14_annotation_total.
Print Assumptions C14_annotation_total_fate.
Print Assumptions C14_annotation_total_coc.
Print Assumptions C14_annotation_total_wod_partial.
Print Assumptions C14_annotation_total_dc_partial.
Print Assumptions C14_annotation_total_wod.
Print Assumptions C14_annotation_total_dc.
Print Assumptions C14_wod_text_recounts.
Print Assumptions C14_dc_text_recounts.
Print Assumptions C14_strip_evaluates.
Print Assumptions C14_detail_pure.
Print Assumptions C14_detail_idempotent.

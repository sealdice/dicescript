(* C15 — min and max mode draw nothing and bracket every random roll.  The statements of the
   property, each closed by the lemma of Proofs/ that proves it. *)
From Coq Require Import String Ascii NArith ZArith List Bool.
From DS Require Import Model.PCG Model.Roll Model.Str Model.Dice Model.DiceExpr Proofs.RollProofs Proofs.DiceProofs Proofs.DiceExprProofs.
Import ListNotations.
Open Scope string_scope.
Open Scope Z_scope.

Section Source.
  Variable S : Type.
  Variable next : S -> N * S.
  Hypothesis next_word : forall s, (fst (next s) < W64)%N.

(* min mode: no randomness consumed (state returned unchanged, never out of fuel); every die at its lowest face clamp(1): the bound is attained *)
Theorem C15_common_min_mode fuel times d dmin dmax keep lo hi s :
    0 <= times -> 1 <= d ->
    roll_common next fuel times d dmin dmax keep lo hi (-1) s =
    Done ((sum64 (repeat (clampdie dmin dmax 1) (Z.to_nat (pick_num times keep lo hi))),
           common_text times (pick_num times keep lo hi)
                       (repeat (clampdie dmin dmax 1) (Z.to_nat times))), s).
Proof. exact (roll_common_min S next fuel times d dmin dmax keep lo hi s). Qed.

(* max mode: no randomness consumed; every die at its highest face clamp(sides) *)
Theorem C15_common_max_mode fuel times d dmin dmax keep lo hi s :
    0 <= times ->
    roll_common next fuel times d dmin dmax keep lo hi 1 s =
    Done ((sum64 (repeat (clampdie dmin dmax d) (Z.to_nat (pick_num times keep lo hi))),
           common_text times (pick_num times keep lo hi)
                       (repeat (clampdie dmin dmax d) (Z.to_nat times))), s).
Proof. exact (roll_common_max S next fuel times d dmin dmax keep lo hi s). Qed.

(* XdY with every keep/drop/min/max combination: min-mode total <= any random total <= max-mode total, and the two bounds are exactly the min/max-mode results *)
Theorem C15_common_bracket fuel times d dmin dmax keep lo hi s num txt s' :
    let c1 := clampdie dmin dmax 1 in
    let cd := clampdie dmin dmax d in
    let p := pick_num times keep lo hi in
    0 <= times -> 1 <= d <= MaxInt64 - 1 ->
    times * Z.max (Z.abs c1) (Z.abs cd) < two63 ->
    roll_common next fuel times d dmin dmax keep lo hi 0 s = Done ((num, txt), s') ->
    p * c1 <= num <= p * cd /\
    (exists tmin, roll_common next fuel times d dmin dmax keep lo hi (-1) s = Done ((p * c1, tmin), s)) /\
    (exists tmax, roll_common next fuel times d dmin dmax keep lo hi 1 s = Done ((p * cd, tmax), s)).
Proof. exact (common_bracket S next next_word fuel times d dmin dmax keep lo hi s num txt s'). Qed.

(* Fate min mode = -4, state unchanged *)
Theorem C15_fate_min fuel s : roll_fate next fuel (-1) s = Done ((-4, "----"), s).
Proof. exact (roll_fate_min S next fuel s). Qed.

(* Fate max mode = 4, state unchanged *)
Theorem C15_fate_max fuel s : roll_fate next fuel 1 s = Done ((4, "++++"), s).
Proof. exact (roll_fate_max S next fuel s). Qed.

(* every Fate roll lies in -4..4 *)
Theorem C15_fate_bracket fuel mode s sum txt s' :
    roll_fate next fuel mode s = Done ((sum, txt), s') ->
    String.length txt = 4%nat /\
    Forall fate_char (list_ascii_of_string txt) /\
    sum = count_char "+" txt - count_char "-" txt /\
    -4 <= sum <= 4.
Proof. exact (roll_fate_spec S next next_word fuel mode s sum txt s'). Qed.

(* CoC bonus AND penalty dice (a penalty die shows 10 in min mode): min-mode = 1 <= any roll <= 100 = max-mode, modes consume nothing *)
Theorem C15_coc_bracket fuel isBonus diceNum s num txt s' :
    0 <= diceNum ->
    roll_coc next fuel isBonus diceNum 0 s = Done ((num, txt), s') ->
    exists nmin tmin nmax tmax,
      roll_coc next fuel isBonus diceNum (-1) s = Done ((nmin, tmin), s) /\
      roll_coc next fuel isBonus diceNum 1 s = Done ((nmax, tmax), s) /\
      nmin = 1 /\ nmax = 100 /\ nmin <= num <= nmax.
Proof. exact (coc_bracket S next next_word fuel isBonus diceNum s num txt s'). Qed.

(* expressions: min/max-mode evaluation consumes no randomness and does not depend on the generator state *)
Theorem C15_minmax_pure mode e :
    mode = -1 \/ mode = 1 -> wf_dexpr e ->
    exists v, forall fuel s, deval next fuel mode e s = Done (v, s).
Proof. exact (deval_minmax_pure S next mode e). Qed.

(* every expression built from constants, dice terms, + and multiplication by non-negative constants: min-mode value <= random value <= max-mode value, for every generator state *)
Theorem C15_mono_expr_bracket e : forall fuel s r s',
    wf_dexpr e ->
    deval next fuel 0 e s = Done (r, s') ->
    exists lo hi,
      (forall f2 s2, deval next f2 (-1) e s2 = Done (lo, s2)) /\
      (forall f2 s2, deval next f2 1 e s2 = Done (hi, s2)) /\
      lo <= r <= hi.
Proof. exact (mono_expr_bracket S next next_word e). Qed.

End Source.

(* non-vacuity: a concrete expression is well formed (its bracket on the real generator is
   DiceExprProofs.ex_expr_bracket) *)
Example C15_nonvacuous : wf_dexpr ex_expr.
Proof. exact ex_expr_wf. Qed.

Print Assumptions C15_common_min_mode.
Print Assumptions C15_common_max_mode.
Print Assumptions C15_common_bracket.
Print Assumptions C15_fate_min.
Print Assumptions C15_fate_max.
Print Assumptions C15_fate_bracket.
Print Assumptions C15_coc_bracket.
Print Assumptions C15_minmax_pure.
Print Assumptions C15_mono_expr_bracket.

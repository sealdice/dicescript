(* C01 — no input can crash the host (VM half). Theorems over Model/VM.v, the VM model validated against the
   real VM by the K2 correspondence. Parser totality is NOT a theorem (decided by search + the PEG model's
   explicit panic flag in K1). *)
From Coq Require Import NArith ZArith List Bool String.
From DS Require Import Model.Value Model.VM Model.CodeWf Model.Ast Model.Compile Proofs.VMSafety Proofs.CompileWf.
Import ListNotations.

(* For byte-code whose operands have the shapes the VM asserts and whose relative jumps never go below
   index 0 (code_wf) — checked on every program the real parser emitted in the corpus — and for a function
   table whose bodies have the same property (ftab_wf), NO execution
   reaches a Go panic site: for every fuel, every generator state, every configuration and every variable state
   that is `state_good` (for `exec` below: every stack too, under G). The single exception is a model-only site (push.range with an operand outside
   int64, which a Go int cannot hold: see C01_run_no_panic_refuted_big_int). `state_good` excludes a bare
   `Computed.compute` native method without Self, a value no VM instruction can create.
   The mark.detail spans need no hypothesis: the one site that slices the source text with a span
   (push.def_expr) skips a span outside the text (non_wf_span_no_longer_panics). *)
Theorem C01_run_no_panic_partial :
  forall E c src, code_wf c = true -> ftab_wf (e_ftab E) = true ->
  forall fuel st, state_good st -> match run fuel E c src st with OPanic s => s = range_msg | _ => True end.
Proof. exact Proofs.VMSafety.C01_run_no_panic_partial. Qed.

(* the same on every machine state satisfying the frame invariant (sub-VMs of calls / computed values included) *)
Theorem C01_exec_no_panic_partial :
  forall E, ftab_wf (e_ftab E) = true ->
  forall fuel m, machine_ok m -> G m -> match exec fuel E m with Panic s => s = range_msg | _ => True end.
Proof. exact Proofs.VMSafety.C01_exec_no_panic_partial. Qed.

(* the state left by a run that returned a value is good again, and so is the value: the theorem applies to the next
   run on the same VM.  Nothing is said of the state left by a run that ended in an error. *)
Theorem C01_run_keeps_state_good :
  forall E c src fuel st v st', state_good st -> run fuel E c src st = Val v st' -> state_good st' /\ vgood v.
Proof. exact Proofs.VMSafety.C01_run_keeps_state_good. Qed.

Theorem C01_initial_state_good : state_good st0.
Proof. exact init_state_good. Qed.

(* the code_wf hypothesis is DISCHARGED for every program of the AST of Model/Ast.v (all expression and statement
   constructors, any size): the reference compiler — tied to the real parser instruction by instruction (K4) — only
   emits operands of the asserted shapes and never a jump below index 0 (the tight case is a top-level `continue`, which
   lands exactly on index 0), so no compiled program reaches a Go panic site (Proofs/CompileWf.v) *)
Theorem C01_compile_code_wf : forall p : stmt, code_wf (compile p) = true.
Proof. exact compile_code_wf. Qed.

Theorem C01_compiled_program_never_panics :
  forall (p : stmt) E src, ftab_wf (e_ftab E) = true ->
  forall fuel st, state_good st -> match run fuel E (compile p) src st with OPanic s => s = range_msg | _ => True end.
Proof. exact compiled_program_never_panics. Qed.

Print Assumptions C01_run_no_panic_partial.
Print Assumptions C01_compile_code_wf.
Print Assumptions C01_compiled_program_never_panics.
Print Assumptions C01_exec_no_panic_partial.
Print Assumptions C01_run_keeps_state_good.
Print Assumptions C01_initial_state_good.
(* the unrestricted statement is false of the model: witnesses C01_run_no_panic_refuted_big_int and
   C01_run_no_panic_refuted_bare_method in Proofs/VMSafety.v; the hypotheses matter: non_wf_jump_panics,
   non_wf_operand_panics, non_wf_ldfs_panics (programs outside code_wf really panic). *)

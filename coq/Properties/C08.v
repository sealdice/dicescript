(* C08 — compiled code is well-formed on every path, not only the path taken.
   Only statements, `exact lemma`, Print Assumptions.

   What is PROVED here: the byte-code verifier of Model/Verify.v is sound for the shape machine of
   Model/Bytecode.v — an accepted program (and every function / computed body it defines) can reach no
   state in which it pops an empty stack, jumps outside [0, len], meets a missing / ill-typed operand,
   closes a block that is not open, or uses dice / detail / lastPop state nobody set up, whatever the
   branch outcomes; and every pc is reached with one fixed number of open blocks.
   Also PROVED (C08_compile_never_stuck, C08_compile_verified): every program of the fragment of Model/Ast.v
   compiles, under the compiler model Model/Compile.v, to code the checker and the inference accept.
   What is VALIDATED case by case (lib/c08.py): that the implementation's compiler output is accepted —
   the proved verifier runs inside Coq on the byte-code dumped from the real parser. *)
From Coq Require Import NArith ZArith List Bool String.
From DS Require Import Model.Bytecode Model.Verify Proofs.VerifyProofs Model.Ast Model.Compile Proofs.CompileVerified Proofs.CompileInfer.
Import ListNotations.

(* an inductive annotation is preserved by every step, and no consistent state is stuck *)
Theorem C08_verify_sound c annot :
  check c annot = true ->
  forall st, consistent annot st ->
  match sstep c st with
  | Stuck _ => False
  | Next l => Forall (consistent annot) l
  | Halt => True
  end.
Proof. exact (verify_sound c annot). Qed.

(* lifted to everything reachable from the initial state, for every choice of branch outcomes *)
Theorem C08_no_stuck_reachable c annot :
  check c annot = true -> forall st, reachable c st -> forall r, sstep c st <> Stuck r.
Proof. exact (no_stuck_reachable c annot). Qed.

(* no path reaches an instruction with a different number of open blocks / template blocks *)
Theorem C08_block_depth_unique c annot :
  check c annot = true ->
  forall s1 s2, reachable c s1 -> reachable c s2 -> pc s1 = pc s2 ->
  List.length (blocks s1) = List.length (blocks s2) /\ List.length (fblocks s1) = List.length (fblocks s2).
Proof. exact (block_depth_unique c annot). Qed.

(* control never leaves [0, len] *)
Theorem C08_step_in_bounds c s l s' :
  pc s < List.length c -> sstep c s = Next l -> In s' l -> pc s' <= List.length c.
Proof. exact (step_in_bounds c s l s'). Qed.

(* the inference is untrusted: acceptance always comes with a checked annotation *)
Theorem C08_verify_has_annotation c : verify c = true -> exists annot, check c annot = true.
Proof. exact (verify_has_annotation c). Qed.

(* whole programs: the program and every body it (transitively) defines *)
Theorem C08_verify_all_safe c :
  verify_all c = true ->
  forall b, subprogram c b ->
  (forall st, reachable b st -> forall r, sstep b st <> Stuck r) /\
  (forall s1 s2, reachable b s1 -> reachable b s2 -> pc s1 = pc s2 ->
     List.length (blocks s1) = List.length (blocks s2) /\ List.length (fblocks s1) = List.length (fblocks s2)).
Proof. exact (verify_all_safe c). Qed.

(* ---- the compiler model: EVERY program of the fragment Model/Ast.v describes (all its expression forms incl. ||, ternary,
   array literals, indexing, dice; if / else, while, break, continue — no further restriction, no size bound) compiles to code that the checker
   accepts under an annotation built by recursion on the syntax tree, hence is well-formed on every path: no reachable
   state of the shape machine is stuck (no stack underflow, no jump out of bounds, no block mismatch, no missing dice /
   detail state), and two arrivals at one instruction agree on the number of open blocks.  Model/Compile.v is tied to the
   real parser instruction by instruction (K4, lib/c02.py); for programs outside that AST the verifier runs on the real
   dumps, case by case. *)
Theorem C08_compile_never_stuck :
  forall (p : stmt) s, reachable (to_shape (compile p)) s -> forall r, sstep (to_shape (compile p)) s <> Stuck r.
Proof. exact compile_never_stuck. Qed.

(* ... and the INFERENCE itself (verify, what the check runs on real dumps) accepts every such program: no annotation has to
   be supplied *)
Theorem C08_compile_verified : forall p : stmt, verify (to_shape (compile p)) = true.
Proof. exact compile_verified. Qed.

Print Assumptions C08_compile_never_stuck.
Print Assumptions C08_compile_verified.
Print Assumptions C08_verify_sound.
Print Assumptions C08_no_stuck_reachable.
Print Assumptions C08_block_depth_unique.
Print Assumptions C08_step_in_bounds.
Print Assumptions C08_verify_has_annotation.
Print Assumptions C08_verify_all_safe.

(* non-vacuity: a real dump with a loop, an if, a break, a template hole and a dice term is accepted;
   a function body is verified; the bottom-of-stack template hole is accepted *)
Example C08_nonvacuous_accepted :
  (verify Examples.ex_loop = true /\ names_ok Examples.ex_loop = true) /\
  (verify_all Examples.ex_func = true /\ count_bodies Examples.ex_func = 1) /\
  verify Examples.ex_hole = true.
Proof. exact (conj Examples.ex_loop_accepted (conj Examples.ex_func_accepted Examples.ex_hole_accepted)). Qed.

(* ... and the verifier does reject: an underflow path that the machine really takes, jumps out of bounds,
   a nil jump operand, two block depths at one pc (really reachable); missing dice / detail / block state are rejected by
   Examples.ex_nodice_rejected, ex_nodetail_rejected, ex_noblock_rejected of Proofs/VerifyProofs.v *)
Example C08_nonvacuous_rejected :
  diagnose Examples.ex_underflow = DReject 6 Underflow /\
  (exists s, reachable Examples.ex_underflow s /\ sstep Examples.ex_underflow s = Stuck Underflow) /\
  diagnose Examples.ex_badjump = DReject 1 BadJump /\
  diagnose Examples.ex_badjump_back = DReject 1 BadJump /\
  diagnose Examples.ex_niljump = DReject 1 BadOperand /\
  diagnose Examples.ex_mismatch = DReject 3 BlockMismatch /\
  (exists s1 s2, reachable Examples.ex_mismatch s1 /\ reachable Examples.ex_mismatch s2 /\ pc s1 = pc s2 /\
                 List.length (blocks s1) <> List.length (blocks s2)).
Proof.
  exact (conj Examples.ex_underflow_rejected (conj Examples.ex_underflow_stuck (conj Examples.ex_badjump_rejected
        (conj Examples.ex_badjump_back_rejected (conj Examples.ex_niljump_rejected
        (conj Examples.ex_mismatch_rejected Examples.ex_mismatch_real)))))).
Qed.

(* a jump left at its placeholder offset 0 is indistinguishable from a genuine `jmp 0`: only its
   consequences are seen (here: rejected when a consumer follows, accepted when none does) *)
Example C08_unpatched_zero_offset_only_by_consequence :
  diagnose Examples.ex_unpatched = DReject 2 Underflow /\ verify Examples.ex_unpatched_harmless = true.
Proof. exact (conj Examples.ex_unpatched_rejected Examples.ex_unpatched_not_detected). Qed.

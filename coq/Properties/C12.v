(* C12 — ValueMap is a correct map: refinement of a finite map for every sequential history;
   the linearizability monitor; linearizability of the interleaving model for every schedule;
   Range / Length under concurrency (scanner layer).  The theorems are those of the Proofs files,
   restated here and closed by `exact`, each with its Print Assumptions; C12_nonvacuous exhibits
   a state satisfying the sequential invariant. *)
From stdpp Require Import gmap.
From Coq Require Import NArith.
From stdpp Require Import sorting.
From DS Require Import Model.ValueMap Proofs.ValueMapProofs Model.ValueMapConc Proofs.ValueMapConcLin Proofs.ValueMapConcProofs Model.ValueMapScan Proofs.ValueMapScanProofs.

(* For EVERY sequence of Store, Load, LoadOrStore, LoadAndDelete, Delete, Clear, Range and
   Length calls, the results of the transliterated sync.Map clone equal those of an ordinary
   finite map (Length = number of live keys; Range = exactly the live pairs, once each,
   compared sorted by key). *)
Theorem C12_results_equal_plain_map :
  forall ops : list vop, (vm_run vm_init ops).2 = (spec_run ∅ ops).2.
Proof. exact refines_run. Qed.

(* ... and the abstract contents after the history are those of the ordinary map *)
Theorem C12_contents_equal_plain_map :
  forall ops : list vop, abs (vm_run vm_init ops).1 = (spec_run ∅ ops).1.
Proof. exact refines_run_state. Qed.

(* one-step refinement from any state satisfying the invariant *)
Theorem C12_refines_step :
  forall m o, Inv m ->
    (vm_step m o).2 = (spec_step (abs m) o).2 /\ abs (vm_step m o).1 = (spec_step (abs m) o).1.
Proof. exact refines_step. Qed.

Theorem C12_invariant_init : Inv vm_init.
Proof. exact inv_init. Qed.

Theorem C12_invariant_step : forall m o, Inv m -> Inv (vm_step m o).1.
Proof. exact inv_step. Qed.

(* the code never writes to a nil dirty map (no Go panic), whatever the history *)
Theorem C12_never_panics : forall ops, ok (vm_run vm_init ops).1 = true.
Proof. exact never_panics. Qed.

(* the abstraction function is the pointwise lookup the code performs *)
Theorem C12_abs_is_lookup : forall m k, Inv m -> abs m !! k = abs_lookup m k.
Proof. exact abs_lookup_spec. Qed.

(* the Length of the unrepaired code (len of the map incl. tombstones) is NOT the number
   of live keys — the defect repaired by the `fix:` commit on valuemap.go *)
Theorem C12_length_raw_refuted :
  exists ops, let m := (vm_run vm_init ops).1 in vm_length_raw m <> size (abs m).
Proof. exact length_raw_refuted. Qed.

Print Assumptions C12_results_equal_plain_map.
Print Assumptions C12_contents_equal_plain_map.
Print Assumptions C12_refines_step.
Print Assumptions C12_invariant_init.
Print Assumptions C12_invariant_step.
Print Assumptions C12_never_panics.
Print Assumptions C12_abs_is_lookup.
Print Assumptions C12_length_raw_refuted.

(* non-vacuity: a reachable amended state with an expunged and a nil entry satisfies Inv *)
Example C12_nonvacuous : Inv ex_state /\ amended ex_state = true.
Proof. destruct ex_nonvacuous as (H1 & H2 & _). split; assumption. Qed.

(* ---- concurrent half: the linearizability monitor is sound and complete ---------- *)
From DS Require Import Model.Linz Proofs.LinzProofs.

(* linearizable h = true  <->  some permutation of the recorded events respects real-time
   order (an event that returned before another was invoked comes first) and is a legal
   sequential history of the ordinary-map specification with exactly the recorded results *)
Theorem C12_linearizability_monitor_correct :
  forall h, linearizable h = true <->
    exists l, l ≡ₚ h /\ respects_rt l /\ seq_ok ∅ l.
Proof. exact linearizable_correct. Qed.
Print Assumptions C12_linearizability_monitor_correct.

(* ---- concurrency: an INTERLEAVING model of the algorithm as written in valuemap.go (Model/ValueMapConc.v): shared state =
   read map + amended flag, dirty map, entry cells shared between the two (nil / expunged / value with a pointer tag),
   misses, mutex holder; one schedule element = one atomic action of the Go code (atomic load of m.read, atomic load /
   compare-and-swap of an entry pointer with the retry loops of tryStore / delete / tryLoadOrStore, Lock — enabled only when
   free —, the lock-protected region, Unlock); operations Load, Store, LoadAndDelete, LoadOrStore with fast and slow paths,
   unexpunge, missLocked with the real promotion test, dirtyLocked with expunging.
   For EVERY number of threads, every list of operations per thread and EVERY schedule, the history of invocations and
   responses is linearizable with respect to an ordinary finite map: there are linearization points between each
   operation's invocation and response such that the map specification, run in that order from the empty map, gives
   every completed operation exactly the response it returned.  (Range / Length / Clear are not in the concurrent model:
   Range / Length are a scanner layer on top of this model, see the end of the file; Clear is covered by the sequential
   theorems above and by the monitor on recorded histories; atomics are taken to be sequentially consistent.) *)
Theorem C12_linearizable_all_schedules : forall (threads : list (list cop)) (sched : list nat),
  ValueMapConc.linearizable (history_of (run_sched (init_conf threads) sched)).
Proof. exact valuemap_linearizable. Qed.

Print Assumptions C12_linearizable_all_schedules.

(* ---- Range / Length under concurrency (Model/ValueMapScan.v, Proofs/ValueMapScanProofs.v): a SCANNER thread layered on
   the interleaving model, step by step as in valuemap.go — atomic load of m.read; if amended: Lock, promote dirty, Unlock;
   then ONE atomic load of the entry cell PER KEY of the table taken, in key order — interleaved with the point-operation
   threads of the unchanged model (same shared record, same mutex).
   The property's sentence "every execution is linearizable" is FALSE for Range and Length (recorded finding
   concurrent-range-length-not-atomic-snapshot): in the schedule below the map is non-empty at every instant between the
   scan's invocation and its response, yet Range visits nothing and Length is 0 — the history
   Store(k1,1) | Range begins, takes the table {k1} | Store(k2,3); LoadAndDelete(k1) | Range loads k1's cell: gone. *)
Theorem C12_range_length_not_atomic_refuted :
  exists (threads : list (list cop)) (sched : list who),
    let tr := strace (sinit threads) sched in
    let fin := srun (sinit threads) sched in
    last tr = Some fin /\
    range_result fin = Some [] /\ length_result fin = Some 0%nat /\
    (forall x, x ∈ tr -> sc_pc x <> ScIdle -> abs_of (sc_sh x) <> ∅) /\
    (forall x, x ∈ tr -> sc_pc x <> ScIdle ->
       (spec_step (abs_of (sc_sh x)) ORange).2 <> RPairs [] /\
       (spec_step (abs_of (sc_sh x)) OLength).2 <> RLen 0).
Proof. exact range_not_atomic_snapshot. Qed.

(* What IS guaranteed, for every number of threads and EVERY schedule:
   every visited pair was the value of its key at the instant the scanner loaded that key's cell (an instant between the
   scan's invocation and its response) ... *)
Theorem C12_range_visited_was_present : forall threads ws res k v,
  range_result (srun (sinit threads) ws) = Some res -> (k, v) ∈ res ->
  exists x, x ∈ strace (sinit threads) ws /\ sc_active (sc_pc x) = true /\
            loading k (sc_pc x) /\ abs_of (sc_sh x) !! k = Some v.
Proof. exact range_visited_was_present. Qed.

(* ... every key is visited at most once, in increasing key order ... *)
Theorem C12_range_keys_once_in_order : forall threads ws res,
  range_result (srun (sinit threads) ws) = Some res -> StronglySorted key_lt res /\ NoDup (res.*1).
Proof. exact range_keys_increasing. Qed.

(* ... a key that is live during the whole scan is visited ... *)
Theorem C12_range_live_key_visited : forall threads ws res k,
  range_result (srun (sinit threads) ws) = Some res ->
  (forall x, x ∈ strace (sinit threads) ws -> sc_active (sc_pc x) = true -> is_Some (abs_of (sc_sh x) !! k)) ->
  k ∈ res.*1.
Proof. exact range_live_key_visited. Qed.

(* ... and ONCE QUIESCENT (no point operation in progress) the scan returns exactly the contents, which are those of a
   sequential order of the completed operations (the second half of the property's concurrency sentence) *)
Theorem C12_range_quiescent_exact : forall threads pre n res,
  let x := srun (sinit threads) pre in
  sc_pc x = ScIdle -> quiescent (sc_c x) ->
  range_result (srun x (repeat Scan n)) = Some res ->
  res = sort_pairs (map_to_list (abs_of (sc_sh x))) /\
  RPairs res = (spec_step (abs_of (sc_sh x)) ORange).2 /\
  abs_of (sc_sh (srun x (repeat Scan n))) = abs_of (sc_sh x).
Proof. exact range_quiescent_exact. Qed.

Theorem C12_quiescent_contents_are_linearized : forall threads ws,
  let x := srun (sinit threads) ws in
  exists l st, erase l = history_of (sc_c x) /\
               replay (∅, ∅) l = Some (abs_of (sc_sh x), st) /\
               (quiescent (sc_c x) -> st = ∅).
Proof. exact abs_of_is_linearized_contents. Qed.

Theorem C12_length_quiescent_exact : forall threads pre n m,
  let x := srun (sinit threads) pre in
  sc_pc x = ScIdle -> quiescent (sc_c x) ->
  length_result (srun x (repeat Scan n)) = Some m ->
  m = size (abs_of (sc_sh x)) /\ RLen m = (spec_step (abs_of (sc_sh x)) OLength).2.
Proof. exact length_quiescent_exact. Qed.

(* the point operations stay linearizable while a scanner runs (its promotion included) *)
Theorem C12_point_ops_linearizable_with_scan : forall threads ws,
  ValueMapConc.linearizable (history_of (sc_c (srun (sinit threads) ws))).
Proof. exact point_ops_linearizable_with_scan. Qed.

Print Assumptions C12_range_length_not_atomic_refuted.
Print Assumptions C12_range_visited_was_present.
Print Assumptions C12_range_keys_once_in_order.
Print Assumptions C12_range_live_key_visited.
Print Assumptions C12_range_quiescent_exact.
Print Assumptions C12_quiescent_contents_are_linearized.
Print Assumptions C12_length_quiescent_exact.
Print Assumptions C12_point_ops_linearizable_with_scan.

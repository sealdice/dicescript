(* C19 — syntax errors point at the right place in the chosen language.
   Statements, each a lemma of Proofs/ErrFmtProofs.v or a short composition of them, Print
   Assumptions, and evaluated examples.

   Model/Pos.v: bytes, utf8.DecodeRune, the generated parser's read() on (line, col, offset, w, rn),
   the plain position of a rune boundary (plain_lc), `consistent`.
   Model/ErrFmt.v: getLineAtBytes, the 57/60 cut, caret, fmtErrText for the three languages, the
   message table as data, formatFriendlyError's message selection, the `l:c (o): ` prefix. *)
From Coq Require Import NArith ZArith List Arith.
From DS Require Import Model.Pos Model.ErrFmt Proofs.ErrFmtProofs.
Import ListNotations.

(* one read() from a consistent point that is not at the end of input gives a consistent point,
   and the slice p.data[offset:] it takes is in range (no panic) *)
Theorem C19_read_preserves_consistent :
  forall inp s, consistent inp s -> w s > 0 ->
    exists s', read inp s = Some s' /\ consistent inp s'.
Proof. exact read_preserves_consistent. Qed.
Print Assumptions C19_read_preserves_consistent.

(* every point the parser can hold (first read, then reads at non-EOF points; restore and memo
   entries copy such points) is consistent *)
Theorem C19_pos_invariant :
  forall inp s, reach inp s -> consistent inp s.
Proof. exact pos_invariant. Qed.
Print Assumptions C19_pos_invariant.

(* ... in particular after any number n+1 of reads from the initial point, as long as no read
   was issued at the end of input *)
Theorem C19_run_invariant :
  forall inp n s,
    run inp (S n) = Some s ->
    (forall m s', m < n -> run inp (S m) = Some s' -> w s' > 0) ->
    consistent inp s.
Proof. intros inp n s H G. exact (pos_invariant inp s (run_invariant inp n s H G)). Qed.
Print Assumptions C19_run_invariant.

Theorem C19_offset_le_length :
  forall inp s, consistent inp s -> off s <= length inp.
Proof. exact offset_le_length. Qed.
Print Assumptions C19_offset_le_length.

(* an offset has exactly one plain line / column *)
Theorem C19_plain_position_unique :
  forall inp o L C L' C', plain_lc inp o L C -> plain_lc inp o L' C' -> L = L' /\ C = C'.
Proof. exact plain_lc_fun. Qed.
Print Assumptions C19_plain_position_unique.

(* The code's (line, col) against the plain 1-based line / column (in runes) of the byte offset:
   L is 1 + the number of newline bytes before the offset; they agree unless the byte AT the
   offset is a newline — exactly then the code reports the NEXT line, column 0. *)
Theorem C19_line_col_spec :
  forall inp s, consistent inp s ->
    exists L C,
      plain_lc inp (off s) L C /\
      L = 1 + count_nl (firstn (off s) inp) /\
      (nth (off s) inp 0%N <> NL \/ length inp <= off s -> line s = L /\ col s = C) /\
      (off s < length inp /\ nth (off s) inp 0%N = NL -> line s = S L /\ col s = 0).
Proof. exact line_col_spec. Qed.
Print Assumptions C19_line_col_spec.

(* "the reported line and column are the line and column of that offset" is therefore FALSE of
   the code at a newline byte (recorded finding KF-C19-newline, errpos-at-newline-next-line-col0 in known_findings.json): for the input ".\n" the parser point at offset
   1 says 2:0, the plain position of offset 1 is 1:2.  Go reports `2:0 (1)` for this input. *)
Theorem C19_line_col_at_newline_refuted :
  exists inp s L C,
    reach inp s /\ plain_lc inp (off s) L C /\ ~ (line s = L /\ col s = C).
Proof.
  exists [46; 10]%N, (mkPt 2 0 1 1 NL), 1, 2.
  destruct newline_point as [Hr Hp].
  split; [exact Hr|split; [exact Hp|cbn; intros [H _]; discriminate]].
Qed.
Print Assumptions C19_line_col_at_newline_refuted.

(* the position handed to the formatter lies within the input and names an existing line *)
Theorem C19_fail_pos_within_input :
  forall inp o ln cl, fail_pos inp o = Some (ln, cl) ->
    o <= length inp /\ 1 <= ln <= length (split_lines inp).
Proof.
  intros inp o ln cl H. split;
    [exact (fail_pos_offset_le inp o ln cl H)|exact (fail_pos_line_in_range inp o ln cl H)].
Qed.
Print Assumptions C19_fail_pos_within_input.

(* from the rendered text one recovers exactly line, col, the quoted line (cut at 57 bytes + "..."
   beyond 60) and the caret: it stands after col-1 blanks (none when col = 0) *)
Theorem C19_render_parses_back :
  forall l ln cl inp cn en ch,
    inp <> [] -> 1 <= ln <= length (split_lines inp) ->
    parse_back (render l ln cl inp cn en ch) =
    Some (ln, cl, Some (get_line inp ln, Nat.pred cl)).
Proof. exact render_parses_back. Qed.
Print Assumptions C19_render_parses_back.

Theorem C19_render_parses_back_empty_input :
  forall l ln cl cn en ch, parse_back (render l ln cl [] cn en ch) = Some (ln, cl, None).
Proof. exact render_parses_back_empty. Qed.
Print Assumptions C19_render_parses_back_empty_input.

(* the quoted line is line `line s` of the input (split at newline bytes, cut at 57+... beyond
   60); its index is the number of newline bytes before the offset (+1 at a newline: the same finding) *)
Theorem C19_quoted_line_is_that_line :
  forall inp s, consistent inp s ->
    1 <= line s <= length (split_lines inp) /\
    get_line inp (line s) = trunc (nth (line s - 1) (split_lines inp) []) /\
    line s - 1 = count_nl (firstn (off s) inp) + (if (rn s =? NL)%N then 1 else 0).
Proof. exact quoted_line_consistent. Qed.
Print Assumptions C19_quoted_line_is_that_line.

(* language: the Chinese text is a function of the Chinese column only (and the Chinese constants),
   the English text of the English column only; the bilingual text carries both position lines.
   That no English table string occurs inside a Chinese one (and v.v.) is `table_ok`, decided on
   the table itself; every check run re-establishes that the table is the one in the source. *)
Theorem C19_language_only :
  (forall ln cl inp cn en en' ch,
      render Cn ln cl inp cn en ch = render Cn ln cl inp cn en' ch /\
      render Cn ln cl inp cn en ch = h_cn ++ context ln cl inp ++ w_cn ++ pos_msg ln cl (fmt_msg cn ch)) /\
  (forall ln cl inp cn cn' en ch,
      render En ln cl inp cn en ch = render En ln cl inp cn' en ch /\
      render En ln cl inp cn en ch = h_en ++ context ln cl inp ++ w_en ++ pos_msg ln cl (fmt_msg en ch)) /\
  (forall ln cl inp cn en ch, exists pre,
      render Bi ln cl inp cn en ch =
      pre ++ (w_cn ++ pos_msg ln cl (fmt_msg cn ch)) ++ [NL] ++ (w_en ++ pos_msg ln cl (fmt_msg en ch))) /\
  table_ok msg_table = true.
Proof.
  split; [exact render_cn_only|]. split; [exact render_en_only|].
  split; [exact render_bi_both|exact msg_table_ok].
Qed.
Print Assumptions C19_language_only.

(* cross-VM footprint: Parse stores its own Config.ParseErrorLanguage (>= 0) in the error value;
   the text then does not depend on the package-level default, the only state VMs share on this
   path.  (Data-race freedom itself is not a Coq theorem: Go race detector, harness c19-conc.) *)
Theorem C19_render_independent_of_other_vms :
  forall err_lang d d' ln cl inp cn en ch,
    (0 <= err_lang)%Z ->
    error_text err_lang d ln cl inp cn en ch = error_text err_lang d' ln cl inp cn en ch.
Proof. exact error_text_independent_of_default. Qed.
Print Assumptions C19_render_independent_of_other_vms.

(* "中(\n1": the point at offset 5 is 2:1 and consistent premises are inhabited *)
Example C19_nonvacuous_position :
  fail_pos [228; 184; 173; 40; 10; 49]%N 5 = Some (2, 1) /\
  (exists s, reach [40; 49]%N s /\ off s = 1 /\ line s = 1 /\ col s = 2).
Proof.
  split; [reflexivity|]. exists (mkPt 1 2 1 1 49%N). split; [|auto].
  apply reach_next with (mkPt 1 1 0 1 40%N); [apply reach_first; reflexivity|cbn; auto|reflexivity].
Qed.

(* "(1+2" rejected at offset 4, Chinese: the whole text, and it reads back *)
Example C19_nonvacuous_render :
  option_map parse_back (model_error msg_table Cn [40; 49; 43; 50]%N 4) =
  Some (Some (1, 5, Some ([40; 49; 43; 50]%N, 4))) /\
  error_text 1 2 1 5 [40; 49]%N [65]%N [66]%N 0 <> error_text 2 2 1 5 [40; 49]%N [65]%N [66]%N 0.
Proof. split; [reflexivity|vm_compute; discriminate]. Qed.

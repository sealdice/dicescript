(* C04 — the dice rolled are legal and the displayed text determines them.  The statements of the
   property; each is closed by the lemma of Proofs/ that proves it; two concrete runs at the end. *)
From Coq Require Import String Ascii NArith ZArith List Bool Sorted Permutation.
From DS Require Import Model.PCG Model.Roll Model.Str Model.Dice Proofs.RollProofs Proofs.DiceProofs Proofs.PoolText.
Import ListNotations.
Open Scope string_scope.
Open Scope Z_scope.

Section Source.
  Variable S : Type.
  Variable next : S -> N * S.
  Hypothesis next_word : forall s, (fst (next s) < W64)%N.

(* every die drawn is clamp(raw) with raw in 1..sides, and exactly `times` dice are drawn *)
Theorem C04_roll_many_legal fuel k d mode dmin dmax s l s' :
    1 <= d <= MaxInt64 - 1 ->
    roll_many next fuel k d mode dmin dmax s = Done (l, s') ->
    length l = k /\
    Forall (fun x => exists raw, 1 <= raw <= d /\ x = clampdie dmin dmax raw) l.
Proof. exact (roll_many_legal S next next_word fuel k d mode dmin dmax s l s'). Qed.

(* XdY with keep/drop/min/max: the dice shown are a permutation of the dice drawn, sorted as the modifier says; total = sum of the first pick_num shown dice; the text is the rendering of exactly those dice and that bar position *)
Theorem C04_roll_common_legal fuel times d dmin dmax keep lowNum highNum mode s num txt s' :
    0 <= times -> 1 <= d <= MaxInt64 - 1 ->
    roll_common next fuel times d dmin dmax keep lowNum highNum mode s = Done ((num, txt), s') ->
    exists draws shown : list Z,
      roll_many next fuel (Z.to_nat times) d mode dmin dmax s = Done (draws, s') /\
      Permutation shown draws /\
      Z.of_nat (length shown) = times /\
      Forall (fun x => exists raw, 1 <= raw <= d /\ x = clampdie dmin dmax raw) shown /\
      (keep = 0 -> shown = draws) /\
      (keep = 1 \/ keep = 4 -> StronglySorted Z.le shown) /\
      (keep = 2 \/ keep = 3 -> StronglySorted Z.ge shown) /\
      num = sum64 (firstn (Z.to_nat (pick_num times keep lowNum highNum)) shown) /\
      txt = common_text times (pick_num times keep lowNum highNum) shown.
Proof. exact (roll_common_legal S next next_word fuel times d dmin dmax keep lowNum highNum mode s num txt s'). Qed.

(* kl/dh keep the smallest, kh/dl keep the largest: every kept die is <= (>=) every dropped die *)
Theorem C04_roll_common_keeps_extremes fuel times d dmin dmax keep lowNum highNum mode s num txt s' :
    0 <= times -> 1 <= d <= MaxInt64 - 1 ->
    roll_common next fuel times d dmin dmax keep lowNum highNum mode s = Done ((num, txt), s') ->
    exists draws shown : list Z,
      roll_many next fuel (Z.to_nat times) d mode dmin dmax s = Done (draws, s') /\
      Permutation shown draws /\
      num = sum64 (firstn (Z.to_nat (pick_num times keep lowNum highNum)) shown) /\
      (keep = 1 \/ keep = 4 ->
       forall x y, In x (firstn (Z.to_nat (pick_num times keep lowNum highNum)) shown) ->
                   In y (skipn (Z.to_nat (pick_num times keep lowNum highNum)) shown) -> x <= y) /\
      (keep = 2 \/ keep = 3 ->
       forall x y, In x (firstn (Z.to_nat (pick_num times keep lowNum highNum)) shown) ->
                   In y (skipn (Z.to_nat (pick_num times keep lowNum highNum)) shown) -> x >= y).
Proof. exact (roll_common_keeps_extremes S next next_word fuel times d dmin dmax keep lowNum highNum mode s num txt s'). Qed.

(* number of dice counted lies in 0..times *)
Theorem C04_pick_num_range times keep lowNum highNum :
    0 <= times -> 0 <= pick_num times keep lowNum highNum <= times.
Proof. exact (pick_num_range times keep lowNum highNum). Qed.

(* the int64 accumulation is the mathematical sum when it cannot overflow *)
Theorem C04_sum64_exact B l :
    Forall (fun x => - B <= x <= B) l ->
    Z.of_nat (length l) * B < two63 ->
    sum64 l = fold_right Z.add 0 l.
Proof. exact (sum64_exact_abs B l). Qed.

(* the displayed text determines the dice shown and the bar position (rendering is injective) *)
Theorem C04_common_text_determines_dice t p p' l l' :
    0 <= p <= t -> 0 <= p' <= t ->
    Z.of_nat (length l) = t -> Z.of_nat (length l') = t ->
    common_text t p l = common_text t p' l' ->
    l = l' /\ p = p'.
Proof. exact (common_text_inj t p p' l l'). Qed.

(* decimal rendering is injective *)
Theorem C04_show_Z_inj x y : show_Z x = show_Z y -> x = y.
Proof. exact (StrFacts.show_Z_inj x y). Qed.

(* Fate: four symbols, sum = #plus - #minus, in -4..4 *)
Theorem C04_fate_legal fuel mode s sum txt s' :
    roll_fate next fuel mode s = Done ((sum, txt), s') ->
    String.length txt = 4%nat /\
    Forall fate_char (list_ascii_of_string txt) /\
    sum = count_char "+" txt - count_char "-" txt /\
    -4 <= sum <= 4.
Proof. exact (roll_fate_spec S next next_word fuel mode s sum txt s'). Qed.

(* CoC bonus/penalty: result = min/max of val(tens candidate, units) over the D100's own tens digit and the extra tens dice shown; in 1..100; text lists exactly the D100 and those digits *)
Theorem C04_coc_legal fuel isBonus diceNum mode s num txt s' :
    0 <= diceNum ->
    roll_coc next fuel isBonus diceNum mode s = Done ((num, txt), s') ->
    exists (res : Z) (digits : list Z),
      1 <= res <= 100 /\
      Z.of_nat (length digits) = diceNum /\
      Forall (fun c => 0 <= c <= 9) digits /\
      (let u := res mod 10 in
       let t0 := (res / 10) mod 10 in
       num = (if isBonus
              then fold_right Z.min (coc_val t0 u) (map (fun c => coc_val c u) digits)
              else fold_right Z.max (coc_val t0 u) (map (fun c => coc_val c u) digits))) /\
      1 <= num <= 100 /\
      txt = "(D100=" ++ show_Z res ++ (if isBonus then ",奖励" else ",惩罚")
              ++ join " " (map show_Z digits) ++ ")".
Proof. exact (roll_coc_spec S next next_word fuel isBonus diceNum mode s num txt s'). Qed.

(* WoD: rounds form a chain (each later round has as many dice as the previous round had dice >= add-line), every die in 1..points, successes = dice meeting the threshold, total dice and round count as computed *)
Theorem C04_wod_legal rfuel fuel addLine pool points threshold isGE mode s succ all rounds txt s' :
    wod_check addLine pool points threshold = true ->
    points <= MaxInt64 - 1 ->
    roll_wod next rfuel fuel addLine pool points threshold isGE mode s
      = Done ((succ, all, rounds, txt), s') ->
    exists rs : list (list Z),
      1 <= pool <= 20000 /\
      round_chain (wod_reach addLine) (Z.to_nat pool) rs /\
      Forall (Forall (fun x => 1 <= x <= points)) rs /\
      succ = countZ (wod_succ threshold isGE) (concat rs) /\
      rounds = Z.of_nat (length rs) /\
      (Z.of_nat (length (concat rs)) < two63 -> all = Z.of_nat (length (concat rs))).
Proof. exact (roll_wod_spec S next next_word rfuel fuel addLine pool points threshold isGE mode s succ all rounds txt s'). Qed.

(* Double Cross: same chain structure; result = sum of per-round values; for points <= 10: 10*(rounds-1) + max of the last round *)
Theorem C04_dc_legal rfuel fuel addLine pool points mode s result all rounds txt s' :
    dc_check addLine pool points = true ->
    points <= MaxInt64 - 1 ->
    roll_dc next rfuel fuel addLine pool points mode s = Done ((result, all, rounds, txt), s') ->
    exists rs : list (list Z),
      1 <= pool <= 20000 /\
      round_chain (dc_reach addLine) (Z.to_nat pool) rs /\
      Forall (Forall (fun x => 1 <= x <= points)) rs /\
      rounds = Z.of_nat (length rs) /\
      (Z.of_nat (length (concat rs)) < two63 -> all = Z.of_nat (length (concat rs))) /\
      result = fold_left (fun a r => wrap64 (a + dc_round_max addLine r)) rs 0 /\
      (points <= 10 -> 10 * rounds < two63 ->
       result = 10 * (rounds - 1) + dice_max (last rs [])).
Proof. exact (roll_dc_spec S next next_word rfuel fuel addLine pool points mode s result all rounds txt s'). Qed.

(* exact per-round rule for any sides: 10 from the LAST die reaching the critical line, then the running max of later dice (order dependent when sides > 10 — recorded finding) *)
Theorem C04_dc_round_value_rule addLine r1 x r2 m :
    dc_reach addLine x = true -> filter (dc_reach addLine) r2 = [] ->
    fold_left (dc_mx_step addLine) (r1 ++ x :: r2) m = fold_left Z.max r2 10.
Proof. exact (dc_mx_exact addLine r1 x r2 m). Qed.

End Source.

(* the pool texts determine what they display: two renderings are equal only for the same counters and — whenever dice are
   listed at all — the same rounds, die by die (Proofs/PoolText.v; the text itself is tied to the roll by
   C14_annotation_total_wod / _dc) *)
Theorem C04_wod_text_determines_dice addLine threshold isGE pool succ all rounds rs pool' succ' all' rounds' rs' :
  1 <= rounds -> 1 <= rounds' ->
  wod_render addLine threshold isGE pool succ all rounds rs = wod_render addLine threshold isGE pool' succ' all' rounds' rs' ->
  succ = succ' /\ all = all' /\ rounds = rounds' /\
  pool_displayed (wod_reach addLine) pool rs = pool_displayed (wod_reach addLine) pool' rs' /\
  (pool_displayed (wod_reach addLine) pool rs = true -> rs = rs').
Proof. exact (wod_render_inj addLine threshold isGE pool succ all rounds rs pool' succ' all' rounds' rs'). Qed.

Theorem C04_dc_text_determines_dice addLine pool result all rounds rs pool' result' all' rounds' rs' :
  1 <= rounds -> 1 <= rounds' ->
  dc_render addLine pool result all rounds rs = dc_render addLine pool' result' all' rounds' rs' ->
  result = result' /\ all = all' /\ rounds = rounds' /\
  pool_displayed (dc_reach addLine) pool rs = pool_displayed (dc_reach addLine) pool' rs' /\
  (pool_displayed (dc_reach addLine) pool rs = true -> rs = rs').
Proof. exact (dc_render_inj addLine pool result all rounds rs pool' result' all' rounds' rs'). Qed.

(* non-vacuity: a concrete run meets the hypotheses *)
Example C04_nonvacuous : exists num txt s', roll_common pcg_next 64 3 6 None None 2 0 2 0 {| hi := 1; lo := 2 |}%N = Done ((num, txt), s').
Proof. vm_compute. eauto. Qed.
Example C04_nonvacuous_wod : exists r s', roll_wod pcg_next 100 64 8 5 10 8 true 0 {| hi := 5; lo := 7 |}%N = Done (r, s') /\ wod_check 8 5 10 8 = true.
Proof. vm_compute. eauto. Qed.

Print Assumptions C04_wod_text_determines_dice.
Print Assumptions C04_dc_text_determines_dice.
Print Assumptions C04_roll_many_legal.
Print Assumptions C04_roll_common_legal.
Print Assumptions C04_roll_common_keeps_extremes.
Print Assumptions C04_pick_num_range.
Print Assumptions C04_sum64_exact.
Print Assumptions C04_common_text_determines_dice.
Print Assumptions C04_show_Z_inj.
Print Assumptions C04_fate_legal.
Print Assumptions C04_coc_legal.
Print Assumptions C04_wod_legal.
Print Assumptions C04_dc_legal.
Print Assumptions C04_dc_round_value_rule.

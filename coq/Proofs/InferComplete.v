(* When does the INFERENCE of Model/Verify.v (`infer` / `verify`, fixpoint iteration with fuel)
   accept a program?  A sufficient condition, independent of any compiler:

     the program has an inductive annotation Wg (check c Wg = true), contains no fstr.block.push,
     and every backward (or self) jump k -> t lies in a REGION (t, e) -- t <= k <= e -- such that no
     instruction before t jumps or falls into (t, e], and such that for EVERY abstract state E
     without template blocks there is an annotation W E, inductive on [t, e], with E at t.

   Then the first pass of `infer` already computes a fixpoint (a backward jump never changes the
   state recorded at its target: everything recorded inside the region stays above W E, E being the
   state recorded at the head), the second pass changes nothing, and `verify c = true` -- two of
   the 200 units of fuel are used. *)
From Coq Require Import NArith ZArith List Bool String Lia.
From DS Require Import Model.Bytecode Model.Verify Proofs.VerifyProofs.
Import ListNotations.
Open Scope nat_scope.
Local Notation length := List.length.

Definition plain (a : astate) : Prop := a_fb a = [] /\ a_fd a = None.
Definition above (a w : astate) : Prop := aleb a w = true.

Lemma above_plain_iff a w :
  plain a ->
  (above a w <->
   plain w /\ a_lo w <= a_lo a /\ list_le (a_blocks w) (a_blocks a) = true /\ a_dice w <= a_dice a /\
   implb (a_det w) (a_det a) = true /\ implb (a_last w) (a_last a) = true).
Proof.
  intros [Pf Pd]. unfold above. rewrite aleb_iff, Pf, Pd. split.
  - intros (H1 & H2 & H3 & H4 & H5 & H6 & H7). repeat split; auto.
    + destruct (a_fb w) as [|[x d] r]; [reflexivity|discriminate].
    + destruct (a_fd w); [discriminate|reflexivity].
  - intros ([Qf Qd] & H1 & H2 & H5 & H6 & H7). rewrite Qf, Qd. repeat split; auto.
Qed.

Lemma list_min_glb : forall w l1 l2,
  list_le w l1 = true -> list_le w l2 = true ->
  exists m, list_min l1 l2 = Some m /\ list_le w m = true /\ list_le m l1 = true /\ list_le m l2 = true.
Proof.
  induction w as [|x r IH]; intros [|x1 r1] [|x2 r2] H1 H2; cbn [list_le] in *; try discriminate.
  - exists []. repeat split; reflexivity.
  - destruct (x <=? x1) eqn:E1; [|discriminate]. destruct (x <=? x2) eqn:E2; [|discriminate].
    destruct (IH r1 r2 H1 H2) as (m & Hm & M1 & M2 & M3).
    exists (Nat.min x1 x2 :: m). cbn [list_min list_le]. rewrite Hm, M1, M2, M3.
    apply Nat.leb_le in E1. apply Nat.leb_le in E2.
    replace (x <=? Nat.min x1 x2) with true by (symmetry; apply Nat.leb_le; lia).
    replace (Nat.min x1 x2 <=? x1) with true by (symmetry; apply Nat.leb_le; lia).
    replace (Nat.min x1 x2 <=? x2) with true by (symmetry; apply Nat.leb_le; lia).
    repeat split; reflexivity.
Qed.

Lemma implb_and c a b : implb c a = true -> implb c b = true -> implb c (a && b) = true.
Proof. destruct c, a, b; auto. Qed.
Lemma implb_and_l a b : implb (a && b) a = true.
Proof. destruct a, b; auto. Qed.
Lemma implb_and_r a b : implb (a && b) b = true.
Proof. destruct a, b; auto. Qed.

Lemma ajoin_glb a1 a2 w :
  plain a1 -> plain a2 -> above a1 w -> above a2 w ->
  exists j, ajoin a1 a2 = Some j /\ plain j /\ above j w /\ above a1 j /\ above a2 j.
Proof.
  intros P1 P2 H1 H2. pose proof H1 as H1'. pose proof H2 as H2'.
  apply (above_plain_iff _ _ P1) in H1. apply (above_plain_iff _ _ P2) in H2.
  destruct H1 as (Pw & A1 & A2 & A3 & A4 & A5), H2 as (_ & B1 & B2 & B3 & B4 & B5).
  destruct (list_min_glb _ _ _ A2 B2) as (m & Hm & M1 & M2 & M3).
  destruct P1 as [P1f P1d], P2 as [P2f P2d].
  unfold ajoin. rewrite Hm, P1f, P2f, P1d, P2d. cbn [fb_min opt_min].
  eexists; split; [reflexivity|].
  assert (Pj : plain {| a_lo := Nat.min (a_lo a1) (a_lo a2); a_blocks := m; a_fb := []; a_fd := None;
                        a_dice := Nat.min (a_dice a1) (a_dice a2); a_det := a_det a1 && a_det a2;
                        a_last := a_last a1 && a_last a2 |}) by (split; reflexivity).
  split; [exact Pj|]. split; [|split].
  - apply (above_plain_iff _ _ Pj). cbn [a_lo a_blocks a_dice a_det a_last].
    repeat split; try apply Pw; auto using implb_and, Nat.min_glb.
  - apply above_plain_iff; [split; assumption|]. cbn [a_lo a_blocks a_dice a_det a_last].
    repeat split; auto using implb_and_l, Nat.le_min_l.
  - apply above_plain_iff; [split; assumption|]. cbn [a_lo a_blocks a_dice a_det a_last].
    repeat split; auto using implb_and_r, Nat.le_min_r.
Qed.

Lemma join_admits W t a1 a2 j :
  plain a1 -> plain a2 -> ajoin a1 a2 = Some j -> admits W t a1 -> admits W t a2 -> admits W t j.
Proof.
  intros P1 P2 Hj [x [Hx H1]] [y [Hy H2]]. rewrite Hx in Hy. injection Hy as <-.
  destruct (ajoin_glb a1 a2 x P1 P2 H1 H2) as (j' & Hj' & _ & Hjx & _). rewrite Hj in Hj'. injection Hj' as <-.
  exists x; split; assumption.
Qed.

Definition rel1 (x y : nat * astate) : Prop := fst x = fst y /\ plain (snd x) /\ above (snd x) (snd y).

Lemma rel1_intro t a' w' :
  plain a' -> plain w' -> a_lo w' <= a_lo a' -> list_le (a_blocks w') (a_blocks a') = true -> a_dice w' <= a_dice a' ->
  implb (a_det w') (a_det a') = true -> implb (a_last w') (a_last a') = true -> rel1 (t, a') (t, w').
Proof.
  intros Pa Pw H1 H2 H3 H4 H5. split; [reflexivity|]. split; [exact Pa|].
  apply (above_plain_iff _ _ Pa). repeat split; auto; apply Pw.
Qed.

(* plain of a record whose a_fb is a hypothesis and whose a_fd is None *)
Ltac pl := split; cbn [a_fb a_fd]; first [assumption|reflexivity].

Lemma atransfer_mono len p sh a w sw :
  plain a -> above a w -> sh <> SFstrPush ->
  atransfer len p sh w = AOk sw ->
  exists sa, atransfer len p sh a = AOk sa /\ Forall2 rel1 sa sw.
Proof.
  intros Pa H Hsh T. apply (above_plain_iff _ _ Pa) in H. destruct H as (Pw & A1 & A2 & A3 & A4 & A5).
  pose proof Pa as [Paf Pad]. pose proof Pw as [Pwf Pwd].
  destruct sh as [e| |off|off dup| | | | | |]; [|cbn [atransfer] in *..].
  - apply atransfer_simple in T as [(G1 & G2 & G3 & G4) ->].
    eexists; split.
    { apply atransfer_simple. split; [|reflexivity]. repeat split.
      - apply (guard_mono _ _ _ G1). rewrite !Nat.eqb_eq. lia.
      - lia.
      - apply (guard_mono _ _ _ G3). destruct (a_det w), (a_det a); auto; discriminate.
      - apply (guard_mono _ _ _ G4). destruct (a_last w), (a_last a); auto; discriminate. }
    unfold simple_post. rewrite Pad, Pwd. cbn [fd_after]. constructor; [|constructor].
    apply rel1_intro; cbn [a_lo a_blocks a_dice a_det a_last]; [pl|pl|lia|exact A2|lia| |].
    + destruct (a_det w), (a_det a), (0 <? e_det_up e); try discriminate; reflexivity.
    + destruct (a_last w), (a_last a), ((0 <? e_pops e) && negb (e_quiet e)); try discriminate; reflexivity.
  - destruct (Nat.eqb_spec (a_lo w) 0); [discriminate|]. injection T as <-.
    rewrite (proj2 (Nat.eqb_neq (a_lo a) 0)) by lia.
    eexists; split; [reflexivity|]. constructor; [|constructor]. apply rel1_intro; assumption.
  - destruct (jump_target len p off) as [t|]; [|discriminate]. injection T as <-.
    eexists; split; [reflexivity|]. constructor; [|constructor]. apply rel1_intro; assumption.
  - destruct (Nat.eqb_spec (a_lo w) 0); [discriminate|].
    destruct (jump_target len p off) as [t|]; [|discriminate]. injection T as <-.
    rewrite (proj2 (Nat.eqb_neq (a_lo a) 0)) by lia.
    eexists; split; [reflexivity|]. rewrite Pad, Pwd. cbn [fd_after].
    assert (G : forall u, rel1 (u, {| a_lo := a_lo a - 1; a_blocks := a_blocks a; a_fb := a_fb a; a_fd := None;
                                      a_dice := a_dice a; a_det := a_det a; a_last := true |})
                               (u, {| a_lo := a_lo w - 1; a_blocks := a_blocks w; a_fb := a_fb w; a_fd := None;
                                      a_dice := a_dice w; a_det := a_det w; a_last := true |})).
    { intro u. apply rel1_intro; cbn [a_lo a_blocks a_dice a_det a_last]; [pl|pl|lia|exact A2|exact A3|exact A4|reflexivity]. }
    constructor; [apply G|constructor; [|constructor]]. destruct dup; [|apply G].
    apply rel1_intro; cbn [a_lo a_blocks a_dice a_det a_last]; [pl|pl|exact A1|exact A2|exact A3|exact A4|reflexivity].
  - injection T as <-. eexists; split; [reflexivity|constructor].
  - injection T as <-. eexists; split; [reflexivity|]. constructor; [|constructor].
    apply rel1_intro; cbn [a_lo a_blocks a_dice a_det a_last list_le]; [pl|pl|exact A1| |exact A3|exact A4|exact A5].
    rewrite (proj2 (Nat.leb_le _ _) A1). exact A2.
  - destruct (a_blocks w) as [|bw rw] eqn:EB; [discriminate|]. injection T as <-.
    destruct (a_blocks a) as [|ba ra]; [discriminate|]. cbn [list_le] in A2.
    destruct (Nat.leb_spec bw ba); [|discriminate].
    eexists; split; [reflexivity|]. constructor; [|constructor].
    apply rel1_intro; cbn [a_lo a_blocks a_dice a_det a_last]; [pl|pl|lia|exact A2|exact A3|exact A4|exact A5].
  - exfalso; apply Hsh; reflexivity.
  - rewrite Pwf in T. discriminate.
  - discriminate.
Qed.

Lemma Forall2_in_l {X Y} (R : X -> Y -> Prop) l1 l2 x : Forall2 R l1 l2 -> In x l1 -> exists y, In y l2 /\ R x y.
Proof.
  induction 1 as [|a b l1 l2 Hab HF IH]; intro Hin; [destruct Hin|].
  destruct Hin as [<-|Hin]; [exists b; split; [left; reflexivity|exact Hab]|].
  destruct (IH Hin) as [y [Hy Hr]]. exists y; split; [right; exact Hy|exact Hr].
Qed.

Lemma set_nth_length {X} (l : list X) n x : length (set_nth l n x) = length l.
Proof. revert n; induction l as [|y r IH]; intros [|n]; cbn [set_nth length]; auto. Qed.

Lemma nth_error_set_nth_eq {X} (l : list X) n x : n < length l -> nth_error (set_nth l n x) n = Some x.
Proof.
  revert n; induction l as [|y r IH]; intros [|n] H; cbn [set_nth length nth_error] in *; try lia; auto.
  apply IH. lia.
Qed.

Lemma nth_error_set_nth_neq {X} (l : list X) n m x : m <> n -> nth_error (set_nth l n x) m = nth_error l m.
Proof.
  revert n m; induction l as [|y r IH]; intros [|n] [|m] H; cbn [set_nth nth_error]; auto; try congruence.
Qed.

Record region := { r_t : nat; r_e : nat; r_W : astate -> annotation }.

Definition fam (c : code) (r : region) : Prop :=
  forall E, plain E ->
  nth_error (r_W r E) (r_t r) = Some (Some E) /\ forall q, r_t r <= q <= r_e r -> check_pc c (r_W r E) q = true.

Section Generic.
  Variable c : code.
  Variable Wg : annotation.
  Variable regs : list region.
  Local Notation len := (length c).

  Hypothesis HWg : check c Wg = true.
  Hypothesis Hnofstr : forall i, In i c -> ishape i <> SFstrPush.
  Hypothesis Hback : forall k i u, nth_error c k = Some i -> In u (targets len k (ishape i)) -> u <= k ->
                                   exists r, In r regs /\ r_t r = u /\ k <= r_e r.
  Hypothesis Hnoentry : forall r q i u, In r regs -> q < r_t r -> nth_error c q = Some i ->
                                        In u (targets len q (ishape i)) -> ~ (r_t r < u <= r_e r).
  Hypothesis Hfam : forall r, In r regs -> fam c r.

  Definition good_entries (A : annotation) : Prop :=
    forall q x, nth_error A q = Some (Some x) -> plain x /\ admits Wg q x.

  (* a region whose head the pass has not reached holds no entry past its head; one whose head was passed
     without an entry there holds none either; one whose head was passed with E there holds only entries
     that the region's annotation for E admits *)
  Definition reg_inv (k : nat) (A : annotation) : Prop :=
    forall r, In r regs ->
      (k <= r_t r -> forall q x, r_t r < q <= r_e r -> nth_error A q <> Some (Some x)) /\
      (r_t r < k ->
       ((forall E, nth_error A (r_t r) <> Some (Some E)) ->
        forall q x, r_t r < q <= r_e r -> nth_error A q <> Some (Some x)) /\
       (forall E, nth_error A (r_t r) = Some (Some E) ->
        forall q x, r_t r < q <= r_e r -> nth_error A q = Some (Some x) ->
        admits (r_W r E) q x)).

  (* positions below k are closed; kr says how far the regions have been entered: k between two
     instructions of a pass, S k while the successors of k are merged *)
  Record Inv (k kr : nat) (A : annotation) : Prop := {
    inv_len : length A = S len;
    inv_good : good_entries A;
    inv_closed : forall q, q < k -> check_pc c A q = true;
    inv_reg : reg_inv kr A;
    inv_zero : nth_error A 0 = Some (Some a_init) }.

  Lemma step_above W k a w i :
    check_pc c W k = true -> nth_error W k = Some (Some w) -> nth_error c k = Some i -> plain a -> above a w ->
    exists sa, atransfer len k (ishape i) a = AOk sa /\ forall t a', In (t, a') sa -> plain a' /\ admits W t a'.
  Proof.
    intros HW Hw HC Pa Hge. destruct (proj1 (check_pc_iff _ _ _ _ _ Hw HC) HW) as [sw [Tw Sw]].
    destruct (atransfer_mono _ _ _ _ _ _ Pa Hge (Hnofstr _ (nth_error_In _ _ HC)) Tw) as [sa [Ta Rel]].
    exists sa; split; [exact Ta|]. intros t a' Hin.
    destruct (Forall2_in_l _ _ _ _ Rel Hin) as [[t' w'] [Hin' (Ht & Pa' & Hg)]]. cbn [fst snd] in *. subst t'.
    split; [exact Pa'|]. exact (admits_weaken _ _ _ _ Hg (Sw _ _ Hin')).
  Qed.

  Definition fact (k : nat) (A : annotation) (t : nat) (a' : astate) : Prop :=
    t <= len /\ plain a' /\
    (admits Wg t a') /\
    (t <= k -> admits A t a') /\
    (forall r, In r regs -> k < r_t r -> ~ (r_t r < t <= r_e r)) /\
    (forall r E, In r regs -> r_t r <= k -> nth_error A (r_t r) = Some (Some E) -> r_t r < t <= r_e r -> k < t ->
                 admits (r_W r E) t a').

  Lemma step_facts k A a i :
    Inv k k A -> nth_error A k = Some (Some a) -> nth_error c k = Some i ->
    exists sa, atransfer len k (ishape i) a = AOk sa /\ forall t a', In (t, a') sa -> fact k A t a'.
  Proof.
    intros I HA HC.
    assert (Hk : k < len) by (apply nth_error_Some; congruence).
    destruct (inv_good _ _ _ I _ _ HA) as [Pa [w [HW Hge]]].
    destruct (step_above Wg k a w i (proj2 (proj1 (check_iff _ _) HWg) k Hk) HW HC Pa Hge) as [sa [Ta Sa]].
    exists sa; split; [exact Ta|].
    assert (RL : forall r E, In r regs -> r_t r <= k <= r_e r -> nth_error A (r_t r) = Some (Some E) ->
                 forall t a', In (t, a') sa -> admits (r_W r E) t a').
    { intros r E Hr Hrange HE t a' Hin.
      destruct (inv_good _ _ _ I _ _ HE) as [PE _].
      destruct (Hfam r Hr E PE) as [Hhead Hck].
      assert (Hwk : admits (r_W r E) k a).
      { destruct (Nat.eq_dec (r_t r) k) as [Heq|Hne].
        - rewrite Heq in *. rewrite HA in HE. inversion HE; subst E. exists a; split; [exact Hhead|apply aleb_refl].
        - destruct (inv_reg _ _ _ I r Hr) as [_ H2]. destruct (H2 ltac:(lia)) as [_ H3].
          apply (H3 E HE k a); [lia|exact HA]. }
      destruct Hwk as [wk [Hwk Hgk]].
      destruct (step_above (r_W r E) k a wk i (Hck k Hrange) Hwk HC Pa Hgk) as [sa' [Ta' Sa']].
      rewrite Ta in Ta'. injection Ta' as <-. apply (Sa' _ _ Hin). }
    intros t a' Hin.
    destruct (Sa _ _ Hin) as [Hpl HWt].
    assert (Htg : In t (targets len k (ishape i))).
    { rewrite <- (atransfer_targets _ _ _ _ _ Ta). apply in_map_iff. exists (t, a'); split; [reflexivity|exact Hin]. }
    unfold fact. split; [eapply targets_le; eauto|]. split; [exact Hpl|]. split; [|split; [|split]].
    - exact HWt.
    - intro Htk. destruct (Hback k i t HC Htg Htk) as [r [Hr [Hrt Hre]]].
      assert (HE : exists E, nth_error A t = Some (Some E)).
      { destruct (Nat.eq_dec t k) as [Heq|Hne]; [rewrite Heq; eauto|].
        destruct (inv_reg _ _ _ I r Hr) as [_ H2]. destruct (H2 ltac:(lia)) as [H3 _].
        destruct (nth_error A t) as [[E|]|] eqn:EA; [eauto|exfalso..];
          apply (H3 ltac:(intros E HE; rewrite Hrt in HE; congruence) k a ltac:(lia) HA). }
      destruct HE as [E EA]. exists E; split; [exact EA|].
      destruct (inv_good _ _ _ I _ _ EA) as [PE _].
      destruct (RL r E Hr ltac:(lia) ltac:(rewrite Hrt; exact EA) t a' Hin) as [x [Hx Hgx]].
      destruct (Hfam r Hr E PE) as [Hhead _]. rewrite Hrt in Hhead. rewrite Hhead in Hx. inversion Hx; subst x. exact Hgx.
    - intros r Hr Hkr. eapply Hnoentry; eauto.
    - intros r E Hr Hrk HE Hrange Hkt. eapply RL; eauto. lia.
  Qed.

  (* while the successors of k are merged into A0: a region headed at k counts as entered (S k), since the
     merge may put entries inside it *)
  Definition MInv (k : nat) (A0 A : annotation) : Prop :=
    Inv k (S k) A /\ forall q, q <= k -> nth_error A q = nth_error A0 q.

  Lemma check_pc_weaken A t x q :
    q <> t -> t < length A ->
    (forall y, nth_error A t = Some (Some y) -> above y x) ->
    check_pc c A q = true -> check_pc c (set_nth A t (Some x)) q = true.
  Proof.
    intros Hqt Ht Hy H. unfold check_pc in *. rewrite nth_error_set_nth_neq by exact Hqt.
    destruct (nth_error A q) as [[a|]|]; auto. destruct (nth_error c q) as [i|]; auto.
    destruct (atransfer len q (ishape i) a) as [r|succs]; auto.
    rewrite all_ok_iff in *. intros [u b] Hin. pose proof (H _ Hin) as Hs.
    unfold succ_ok in *. cbn [fst snd] in *.
    destruct (Nat.eq_dec u t) as [->|Hne].
    - rewrite nth_error_set_nth_eq by exact Ht.
      destruct (nth_error A t) as [[y|]|] eqn:Ey; try discriminate.
      eapply aleb_trans; [exact Hs|exact (Hy y eq_refl)].
    - rewrite nth_error_set_nth_neq by exact Hne. exact Hs.
  Qed.

  Lemma MInv_set k A0 A a t x :
    nth_error A0 k = Some (Some a) ->
    MInv k A0 A -> k < t -> t <= len -> plain x ->
    (admits Wg t x) ->
    (forall y, nth_error A t = Some (Some y) -> above y x) ->
    (forall r, In r regs -> k < r_t r -> ~ (r_t r < t <= r_e r)) ->
    (forall r E, In r regs -> r_t r <= k -> nth_error A0 (r_t r) = Some (Some E) -> r_t r < t <= r_e r ->
                 admits (r_W r E) t x) ->
    MInv k A0 (set_nth A t (Some x)).
  Proof.
    intros HA0k [[ML MG MC MR MZ] MS] Hkt Htl Px HWx Hyx Hno Hreg.
    assert (Htlen : t < length A) by lia.
    split; [constructor|]; [rewrite set_nth_length; exact ML| | | |rewrite nth_error_set_nth_neq by lia; exact MZ|].
    - intros q z Hq. destruct (Nat.eq_dec q t) as [->|Hne].
      + rewrite nth_error_set_nth_eq in Hq by exact Htlen. inversion Hq; subst z. split; assumption.
      + rewrite nth_error_set_nth_neq in Hq by exact Hne. apply MG. exact Hq.
    - intros q Hq. apply check_pc_weaken; [lia|exact Htlen|exact Hyx|apply MC; exact Hq].
    - intros r Hr. destruct (MR r Hr) as [R1 R2]. split.
      + intros Hk q z Hrange. rewrite nth_error_set_nth_neq; [apply R1; assumption|].
        intros ->. apply (Hno r Hr ltac:(lia)). exact Hrange.
      + intros Hk. destruct (R2 Hk) as [R3 R4].
        assert (Hrt : nth_error (set_nth A t (Some x)) (r_t r) = nth_error A0 (r_t r)).
        { rewrite nth_error_set_nth_neq by lia. apply MS. lia. }
        assert (Hrt' : nth_error A (r_t r) = nth_error A0 (r_t r)) by (apply MS; lia).
        split.
        * intros HnE q z Hrange. destruct (Nat.eq_dec q t) as [->|Hne].
          -- exfalso. rewrite Hrt in HnE. rewrite Hrt' in R3.
             destruct (Nat.eq_dec (r_t r) k) as [Heq|Hnk].
             ++ rewrite Heq in HnE. apply (HnE a). exact HA0k.
             ++ apply (R3 HnE k a ltac:(lia)). rewrite (MS k (Nat.le_refl k)). exact HA0k.
          -- rewrite nth_error_set_nth_neq by exact Hne. rewrite Hrt in HnE. rewrite Hrt' in R3. apply R3; assumption.
        * intros E HE q z Hrange Hq. rewrite Hrt in HE. rewrite Hrt' in R4.
          destruct (Nat.eq_dec q t) as [->|Hne].
          -- rewrite nth_error_set_nth_eq in Hq by exact Htlen. inversion Hq; subst z.
             apply (Hreg r E Hr ltac:(lia) HE Hrange).
          -- rewrite nth_error_set_nth_neq in Hq by exact Hne. apply (R4 E HE q z Hrange Hq).
    - intros q Hq. rewrite nth_error_set_nth_neq by lia. apply MS. exact Hq.
  Qed.

  Lemma merge_step k A0 a :
    nth_error A0 k = Some (Some a) ->
    forall sa A ch,
      MInv k A0 A -> (forall t a', In (t, a') sa -> fact k A0 t a') ->
      exists A' ch', merge A ch sa = IOk A' ch' /\ MInv k A0 A' /\
                     (forall t a', In (t, a') sa -> admits A' t a') /\
                     (forall u y, nth_error A u = Some (Some y) -> admits A' u y).
  Proof.
    (* the last part: entries only get weaker, so what an earlier successor was merged into stays admitted *)
    intros HA0k. induction sa as [|[t a'] rest IH]; intros A ch M HF.
    - exists A, ch. split; [reflexivity|]. split; [exact M|]. split; [intros t a' []|].
      intros u y Hy. exists y; split; [exact Hy|]. apply aleb_refl.
    - destruct (HF t a' (or_introl eq_refl)) as (Htl & Pa' & [wg [HWg' Hgwg]] & Hbk & Hno & Hreg).
      pose proof M as [[ML MG MC MR MZ] MS].
      assert (HFrest : forall t0 a0, In (t0, a0) rest -> fact k A0 t0 a0) by (intros; apply HF; right; assumption).
      assert (Cont : forall A1 ch1,
                 MInv k A0 A1 ->
                 (admits A1 t a') ->
                 (forall u y, nth_error A u = Some (Some y) -> admits A1 u y) ->
                 exists A' ch', merge A1 ch1 rest = IOk A' ch' /\ MInv k A0 A' /\
                   (forall t0 a0, In (t0, a0) ((t, a') :: rest) -> admits A' t0 a0) /\
                   (forall u y, nth_error A u = Some (Some y) -> admits A' u y)).
      { intros A1 ch1 M1 [x [Hx Hgx]] Hmono.
        destruct (IH A1 ch1 M1 HFrest) as (A' & ch' & Hm & M' & Hs & Hmono').
        exists A', ch'. split; [exact Hm|]. split; [exact M'|]. split.
        - intros t0 a0 [Heq|Hin]; [|apply Hs; exact Hin]. inversion Heq; subst t0 a0.
          destruct (Hmono' _ _ Hx) as [x' [Hx' Hgx']]. exists x'; split; [exact Hx'|]. eapply aleb_trans; eauto.
        - intros u y Hy. destruct (Hmono _ _ Hy) as [y1 [Hy1 Hg1]]. destruct (Hmono' _ _ Hy1) as [y2 [Hy2 Hg2]].
          exists y2; split; [exact Hy2|]. eapply aleb_trans; eauto. }
      cbn [merge].
      destruct (nth_error A t) as [[a''|]|] eqn:EA.
      +
        destruct (MG _ _ EA) as [Pa'' [wg' [HWg'' Hg'']]]. rewrite HWg' in HWg''. inversion HWg''; subst wg'.
        destruct (ajoin_glb a'' a' wg Pa'' Pa' Hg'' Hgwg) as (j & Hj & Pj & Hjw & Hj1 & Hj2).
        rewrite Hj.
        destruct (aleb j a'') eqn:Ejl.
        *
          apply Cont; [exact M| |].
          -- exists a''; split; [exact EA|]. eapply aleb_trans; eauto.
          -- intros u y Hy. exists y; split; [exact Hy|apply aleb_refl].
        * (* weakened: only possible for a forward edge *)
          assert (Hkt : k < t).
          { destruct (Nat.le_gt_cases t k) as [Hle|Hgt]; [|exact Hgt]. exfalso.
            assert (EA0 : nth_error A0 t = Some (Some a'')) by (rewrite <- (MS t Hle); exact EA).
            destruct (join_admits A0 t a'' a' j Pa'' Pa' Hj (admits_here _ _ _ EA0) (Hbk Hle)) as [x [Hx Hjx]].
            rewrite EA0 in Hx. injection Hx as <-. congruence. }
          apply Cont.
          -- apply (MInv_set k A0 A a t j HA0k M Hkt Htl Pj (ex_intro _ wg (conj HWg' Hjw))); [|exact Hno|].
             ++ intros y Hy. rewrite EA in Hy. injection Hy as <-. exact Hj1.
             ++ intros r E Hr Hrk HE Hrange.
                apply (join_admits _ _ a'' a' j Pa'' Pa' Hj); [|exact (Hreg r E Hr Hrk HE Hrange Hkt)].
                destruct (MR r Hr) as [_ R2]. destruct (R2 ltac:(lia)) as [_ R4].
                rewrite (MS (r_t r) Hrk) in R4. exact (R4 E HE t a'' Hrange EA).
          -- exists j; split; [apply nth_error_set_nth_eq; lia|exact Hj2].
          -- intros u y Hy. destruct (Nat.eq_dec u t) as [->|Hne].
             ++ rewrite EA in Hy. inversion Hy; subst y. exists j; split; [apply nth_error_set_nth_eq; lia|exact Hj1].
             ++ exists y; split; [rewrite nth_error_set_nth_neq by exact Hne; exact Hy|apply aleb_refl].
      +
        assert (Hkt : k < t).
        { destruct (Nat.le_gt_cases t k) as [Hle|Hgt]; [|exact Hgt]. exfalso.
          destruct (Hbk Hle) as [E [HE _]]. rewrite <- (MS t Hle) in HE. congruence. }
        apply Cont.
        -- apply (MInv_set k A0 A a t a' HA0k M Hkt Htl Pa' (ex_intro _ wg (conj HWg' Hgwg)));
             [intros y Hy; congruence|exact Hno|intros r E Hr Hrk HE Hrange; exact (Hreg r E Hr Hrk HE Hrange Hkt)].
        -- exists a'; split; [apply nth_error_set_nth_eq; lia|apply aleb_refl].
        -- intros u y Hy. destruct (Nat.eq_dec u t) as [->|Hne]; [congruence|].
           exists y; split; [rewrite nth_error_set_nth_neq by exact Hne; exact Hy|apply aleb_refl].
      + exfalso. assert (nth_error A t <> None) by (apply nth_error_Some; lia). congruence.
  Qed.

  Lemma reg_inv_enter k A :
    reg_inv k A -> reg_inv (S k) A.
  Proof.
    intros R r Hr. destruct (R r Hr) as [R1 R2]. split.
    - intros Hle. apply R1. lia.
    - intros Hlt. destruct (Nat.eq_dec (r_t r) k) as [Heq|Hne].
      + split.
        * intros _. apply R1. lia.
        * intros E HE q x Hrange Hq. exfalso. apply (R1 ltac:(lia) q x Hrange Hq).
      + apply R2. lia.
  Qed.

  Lemma Inv_skip k A : Inv k k A -> (forall a, nth_error A k <> Some (Some a)) -> Inv (S k) (S k) A.
  Proof.
    intros I Hk. constructor; try apply I.
    - intros q Hq. destruct (Nat.eq_dec q k) as [->|Hne]; [|apply (inv_closed _ _ _ I); lia].
      unfold check_pc. destruct (nth_error A k) as [[a|]|]; [destruct (Hk a eq_refl)|reflexivity..].
    - apply reg_inv_enter, I.
  Qed.

  Lemma pass_inv : forall cs pre A ch,
    c = pre ++ cs -> Inv (length pre) (length pre) A ->
    exists A' ch', pass c len cs (length pre) A ch = IOk A' ch' /\ Inv len len A'.
  Proof.
    induction cs as [|i cs IH]; intros pre A ch Hc I.
    - exists A, ch. split; [reflexivity|]. replace len with (length pre); [exact I|].
      rewrite Hc, app_nil_r. reflexivity.
    - set (k := length pre) in *.
      assert (HC : nth_error c k = Some i).
      { rewrite Hc. rewrite nth_error_app2 by (unfold k; lia). unfold k. rewrite Nat.sub_diag. reflexivity. }
      assert (Hc' : c = (pre ++ [i]) ++ cs) by (rewrite <- app_assoc; exact Hc).
      assert (Hk' : length (pre ++ [i]) = S k) by (rewrite app_length; cbn [length]; unfold k; lia).
      cbn [pass].
      destruct (nth_error A k) as [[a|]|] eqn:EA.
      + destruct (step_facts k A a i I EA HC) as [sa [Ta HF]]. rewrite Ta.
        assert (M : MInv k A A) by (split; [constructor; try apply I; apply reg_inv_enter, I|reflexivity]).
        destruct (merge_step k A a EA sa A ch M HF) as (A1 & ch1 & Hm & M1 & Hs & _).
        rewrite Hm. rewrite <- Hk'. apply (IH (pre ++ [i]) A1 ch1 Hc'). rewrite Hk'.
        destruct M1 as [[ML MG MC MR MZ] MS].
        constructor; auto.
        intros q Hq. destruct (Nat.eq_dec q k) as [->|Hne]; [|apply MC; lia].
        apply (check_pc_iff _ _ _ a i); [rewrite (MS k (Nat.le_refl k)); exact EA|exact HC|]. exists sa; split; assumption.
      + rewrite <- Hk'. apply (IH (pre ++ [i]) A ch Hc'). rewrite Hk'. apply Inv_skip; [exact I|congruence].
      + rewrite <- Hk'. apply (IH (pre ++ [i]) A ch Hc'). rewrite Hk'. apply Inv_skip; [exact I|congruence].
  Qed.

  Lemma merge_closed A : forall sa ch,
    (forall t a', In (t, a') sa -> plain a' /\ exists x, nth_error A t = Some (Some x) /\ plain x /\ above a' x) ->
    merge A ch sa = IOk A ch.
  Proof.
    induction sa as [|[t a'] rest IH]; intros ch H; cbn [merge]; [reflexivity|].
    destruct (H t a' (or_introl eq_refl)) as [Pa' [x [Hx [Px Hg]]]]. rewrite Hx.
    destruct (ajoin_glb x a' x Px Pa' (aleb_refl _) Hg) as (j & Hj & _ & Hjl & _).
    rewrite Hj. unfold above in Hjl. rewrite Hjl. apply IH. intros; apply H; right; assumption.
  Qed.

  Lemma pass_closed A :
    (forall q x, nth_error A q = Some (Some x) -> plain x) ->
    (forall q, q < len -> check_pc c A q = true) ->
    forall cs pre ch, c = pre ++ cs -> pass c len cs (length pre) A ch = IOk A ch.
  Proof.
    intros HP HCk. induction cs as [|i cs IH]; intros pre ch Hc; [reflexivity|].
    set (k := length pre) in *.
    assert (HC : nth_error c k = Some i).
    { rewrite Hc. rewrite nth_error_app2 by (unfold k; lia). unfold k. rewrite Nat.sub_diag. reflexivity. }
    assert (Hk : k < len) by (apply nth_error_Some; congruence).
    assert (Hc' : c = (pre ++ [i]) ++ cs) by (rewrite <- app_assoc; exact Hc).
    assert (Hk' : length (pre ++ [i]) = S k) by (rewrite app_length; cbn [length]; unfold k; lia).
    cbn [pass].
    destruct (nth_error A k) as [[a|]|] eqn:EA; try (rewrite <- Hk'; apply IH; exact Hc').
    destruct (step_above A k a a i (HCk k Hk) EA HC (HP _ _ EA) (aleb_refl _)) as [sa [Ta Hs]]. rewrite Ta.
    rewrite merge_closed.
    - rewrite <- Hk'. apply IH. exact Hc'.
    - intros t a' Hin. destruct (Hs _ _ Hin) as [Pa' [x [Hx Hg]]]. split; [exact Pa'|].
      exists x; split; [exact Hx|]. split; [apply (HP _ _ Hx)|exact Hg].
  Qed.

  Lemma Inv_init : Inv 0 0 (Some a_init :: repeat None len).
  Proof.
    constructor.
    - cbn [length]. rewrite repeat_length. reflexivity.
    - intros q x Hq. destruct q as [|q]; cbn [nth_error] in Hq.
      + inversion Hq; subst x. split; [split; reflexivity|].
        exact (proj1 (proj1 (check_iff _ _) HWg)).
      + exfalso. destruct (nth_error (repeat None len) q) as [o|] eqn:E; [|discriminate].
        apply nth_error_In in E. apply repeat_spec in E. congruence.
    - intros q Hq. lia.
    - intros r Hr. split; [|intros Hlt; lia].
      intros _ q x Hrange Hq. destruct q as [|q]; [lia|]. cbn [nth_error] in Hq.
      destruct (nth_error (repeat None len) q) as [o|] eqn:E; [|discriminate].
      apply nth_error_In in E. apply repeat_spec in E. congruence.
    - reflexivity.
  Qed.

  Lemma iterate_S f A :
    iterate (S f) c A = match pass c len c 0 A false with IOk annot' true => iterate f c annot' | r => Some r end.
  Proof. reflexivity. Qed.

  Theorem infer_accepts : exists A ch, infer c = Some (IOk A ch) /\ check c A = true.
  Proof.
    destruct (pass_inv c [] (Some a_init :: repeat None len) false eq_refl Inv_init) as (A1 & ch1 & Hp1 & I1).
    cbn [length] in Hp1.
    assert (Hp2 : pass c len c 0 A1 false = IOk A1 false).
    { apply (pass_closed A1) with (pre := []); [|apply (inv_closed _ _ _ I1)|reflexivity].
      intros q x Hq. apply (inv_good _ _ _ I1 _ _ Hq). }
    assert (HC1 : check c A1 = true).
    { apply check_iff. split; [apply admits_here, (inv_zero _ _ _ I1)|apply (inv_closed _ _ _ I1)]. }
    unfold infer. change infer_fuel with (S (S 198)). rewrite iterate_S, Hp1.
    destruct ch1; [rewrite iterate_S, Hp2|]; exists A1, false; split; [reflexivity|exact HC1|reflexivity|exact HC1].
  Qed.

  Theorem verify_accepts : verify c = true.
  Proof. destruct infer_accepts as (A & ch & Hi & Hc). unfold verify. rewrite Hi. exact Hc. Qed.
End Generic.

Print Assumptions verify_accepts.

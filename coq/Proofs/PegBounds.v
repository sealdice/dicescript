(* The packrat interpreter Model/Peg.pe never moves the cursor past the end of the input:
   for an ARBITRARY grammar, class table, action table, predicate table and custom matcher
   (which may claim any length), and EVERY input, the final offset of parse_custom is at most
   the input length.

   Invariant: every point the interpreter can ever stand on or return to — the current point,
   every memoised end point of both memo tables, every locally saved start point — satisfies
       off p + w p <= ilen
   (offset plus width of the rune decoded there).  `read` moves to off p + w p and decodes a
   rune whose width never reaches beyond ilen (width 0 at the end of input); `restore` only
   returns to points that already satisfied the bound; ConsumeCustomDice advances through
   `read` only, so a matcher claiming more than what is left cannot push the cursor further. *)
From Coq Require Import NArith List Bool Lia ZifyBool FMapPositive PeanoNat.
From DS Require Import Model.Peg Proofs.PegStep Model.Matched Proofs.MatchedProofs.
Import ListNotations.
Open Scope N_scope.

(* The bound is one instance of this: a predicate on points that survives `read` holds, after
   any run of the interpreter, of the current point and of every memoised end point. *)
Section PointInv.
  Variable input : PositiveMap.t N.
  Variable ilen : N.
  Variable cmatch : N -> option N.
  Variable rules : list pexpr.
  Variable classes : list (list (N * N * N)).
  Variable acts : list (list aeff).
  Variable preds : list psum.
  Variable Q : pt -> Prop.
  Hypothesis Qread : forall s, Q (cur s) -> Q (cur (read input ilen s)).

  Definition KQ (c : pt) (m1 m2 : PositiveMap.t (bool * pt)) (_ : flags) (_ : list flags) (_ : list N) : Prop :=
    Q c /\ MemoQ Q m1 /\ MemoQ Q m2.
  Definition PI : pst -> Prop := holds KQ.

  Lemma PI_pointed : pointed input ilen Q KQ.
  Proof.
    split; [exact Qread| |]; unfold KQ.
    - intros c m1 m2 cf fs em H. apply H.
    - intros c c' m1 m2 cf fs em (_ & H2 & H3) Hc. auto.
  Qed.

  Lemma PI_memo_put : forall s pos id b p, PI s -> Q p -> PI (memo_put s pos id (b, p)).
  Proof.
    intros s pos id b p (H1 & H2 & H3) Hp. unfold memo_put.
    destruct (skip s); (split; [exact H1|split]); cbn; try assumption; apply MemoQ_add; assumption.
  Qed.

  Lemma memo_get_Q : forall s id b p, PI s -> memo_get s id = Some (b, p) -> Q p.
  Proof.
    intros s id b p (H1 & H2 & H3). unfold memo_get. destruct (skip s); intros Hf; eauto.
  Qed.

  Lemma PI_run_action : forall fn s, PI s -> PI (run_action input ilen cmatch acts fn s).
  Proof. intros fn s H. apply (holds_run_action PI_pointed). intros fuel. exact H. Qed.

  Section Step.
    Variable P : pexpr -> pst -> bool * pst.
    Hypothesis IHP : forall e s ok s', PI s -> P e s = (ok, s') -> PI s'.

    Lemma seq_go_PI : forall start l st ok st',
      Q start -> PI st -> seq_go P start l st = (ok, st') -> PI st'.
    Proof.
      intros start. induction l as [|x r IH]; intros st ok st' Hs HB Hgo; cbn [seq_go] in Hgo.
      - injection Hgo as E1 E2. now rewrite <- E2.
      - destruct (P x st) as [ok1 st1] eqn:E1. pose proof (IHP _ _ _ _ HB E1) as H1.
        destruct ok1; [eapply IH; eauto|].
        injection Hgo as E2 E3. rewrite <- E3. now apply (holds_restore PI_pointed).
    Qed.

    Lemma choice_go_PI : forall l st ok st', PI st -> choice_go P l st = (ok, st') -> PI st'.
    Proof.
      induction l as [|x r IH]; intros st ok st' HB Hgo; cbn [choice_go] in Hgo.
      - injection Hgo as E1 E2. now rewrite <- E2.
      - destruct (P x st) as [ok1 st1] eqn:E1. pose proof (IHP _ _ _ _ HB E1) as H1.
        destruct ok1; [|eapply IH; eauto].
        injection Hgo as E2 E3. now rewrite <- E3.
    Qed.

    Lemma step_PI : forall fuel e s ok s1,
      PI s -> step input ilen cmatch rules classes acts preds P fuel e s = (ok, s1) -> PI s1.
    Proof.
      intros fuel e s ok s1 HB Hstep.
      destruct e as [i fn e|i es|i es|i lab tc e|i e|i e|i e|i e|i e|i e|i e|i r|i fn|i fn|i fn ns
                    |i v ic|i chars ranges cls ic inv_|i]; cbn [step] in Hstep.
      (* PAnd, PNot, PAndL, PNotL step by `look`, PClass and PAny by `eat` *)
      all: try (lazymatch type of Hstep with look _ _ _ _ _ = _ =>
                  exact (holds_look PI_pointed P _ (IHP _) _ _ _ _ _ HB Hstep) end).
      all: try (lazymatch type of Hstep with eat _ _ _ _ = _ =>
                  exact (holds_eat PI_pointed _ _ _ _ HB Hstep) end).
      - (* PAction *)
        destruct (skip s); [eapply IHP; eauto|].
        destruct (P e s) as [ok1 s'] eqn:E1. pose proof (IHP _ _ _ _ HB E1) as H1.
        destruct ok1; injection Hstep as E2 E3; rewrite <- E3; auto using PI_run_action.
      - (* PSeq *) eapply seq_go_PI; [apply HB|exact HB|exact Hstep].
      - (* PChoice *) eapply choice_go_PI; [exact HB|exact Hstep].
      - (* PLabel *)
        destruct (P e s) as [ok1 s'] eqn:E1. pose proof (IHP _ _ _ _ HB E1) as H1.
        destruct ok1; [|injection Hstep as E2 E3; now rewrite <- E3].
        destruct (skip s'); [|destruct (lab =? 1); [|destruct (lab =? 2)]];
          injection Hstep as E2 E3; rewrite <- E3; exact H1.
      - (* POpt *)
        destruct (P e s) as [ok1 s'] eqn:E1. pose proof (IHP _ _ _ _ HB E1) as H1.
        injection Hstep as E2 E3. now rewrite <- E3.
      - (* PStar *) exact (holds_star_loop P _ (IHP _) _ _ _ _ HB Hstep).
      - (* PPlus *)
        destruct (P e s) as [ok1 s'] eqn:E1. pose proof (IHP _ _ _ _ HB E1) as H1.
        destruct ok1; [exact (holds_star_loop P _ (IHP _) _ _ _ _ H1 Hstep)|].
        injection Hstep as E2 E3. now rewrite <- E3.
      - (* PRef *) eapply IHP; [exact HB|exact Hstep].
      - (* PAndCode *) exact (holds_run_pred PI_pointed _ _ _ _ _ _ HB Hstep).
      - (* PNotCode *)
        destruct (run_pred input ilen cmatch preds fn s) as [b s'] eqn:E1.
        injection Hstep as E2 E3. rewrite <- E3. exact (holds_run_pred PI_pointed _ _ _ _ _ _ HB E1).
      - (* PCode *)
        destruct (if ns then false else skip s); injection Hstep as E2 E3; rewrite <- E3;
          auto using PI_run_action.
      - (* PLit *)
        destruct (match_lit input ilen v ic s) as [ok1 s'] eqn:E1.
        pose proof (holds_match_lit PI_pointed _ _ _ _ _ HB E1) as H1.
        apply (holds_fail_at ok1 (cur s)) in H1.
        destruct ok1; injection Hstep as E2 E3; rewrite <- E3; [exact H1|].
        apply (holds_restore PI_pointed); [exact H1|apply HB].
    Qed.
  End Step.

  Theorem pe_PI : forall fuel e s ok s',
    PI s -> pe input ilen cmatch rules classes acts preds fuel e s = (ok, s') -> PI s'.
  Proof.
    induction fuel as [|fuel IH]; intros e s ok s' HB E.
    - cbn [pe] in E. injection E as E1 E2. now rewrite <- E2.
    - rewrite pe_S in E. unfold pe_body in E. cbv zeta in E.
      assert (Ht : PI (tick s)) by exact HB.
      destruct (memo_get (tick s) (node_id e)) as [[b p]|] eqn:Em.
      + injection E as E1 E2. rewrite <- E2.
        apply (holds_restore PI_pointed); [exact Ht|]. eapply memo_get_Q; [exact Ht|exact Em].
      + destruct (step input ilen cmatch rules classes acts preds _ fuel e (tick s)) as [ok1 s1] eqn:E1.
        injection E as E2 E3. rewrite <- E3.
        pose proof (step_PI _ IH _ _ _ _ _ Ht E1) as H1.
        apply PI_memo_put; [exact H1|apply H1].
  Qed.
End PointInv.

Section Bounds.
  Variable input : PositiveMap.t N.
  Variable ilen : N.

  Local Notation READ := (read input ilen).
  Local Notation DEC := (decode input ilen).

  Definition good (p : pt) : Prop := off p + w p <= ilen.

  Lemma decode_at_end : forall o, ilen <= o -> DEC o = (RuneError, 0).
  Proof.
    intros o Ho. unfold decode, byte_at. replace (o <? ilen) with false by lia. reflexivity.
  Qed.

  Lemma read_good : forall s, good (cur s) -> good (cur (READ s)).
  Proof.
    intros s H. unfold good in *. pose proof (read_decode input ilen s) as E.
    symmetry in E. apply decode_spec in E. apply E. now rewrite read_off.
  Qed.

  (* the key fact in isolation: a read at the end of the input does not advance *)
  Lemma read_at_end_stays : forall s,
    ilen <= off (cur s) + w (cur s) -> off (cur (READ (READ s))) = off (cur (READ s)).
  Proof.
    intros s H. rewrite (read_off _ _ (READ s)), read_off.
    pose proof (read_decode input ilen s) as E. rewrite read_off, (decode_at_end _ H) in E.
    injection E as _ ->. lia.
  Qed.

  Lemma good_init : forall fl, PI good (READ (init_pst fl)).
  Proof.
    intros fl. apply (holds_read (PI_pointed input ilen good read_good)).
    split; [unfold good; cbn; lia|]. split; cbn; apply MemoQ_empty.
  Qed.

  Lemma pe_good : forall cmatch rules classes acts preds fuel e fl ok s',
    pe input ilen cmatch rules classes acts preds fuel e (READ (init_pst fl)) = (ok, s') -> good (cur s').
  Proof.
    intros cmatch rules classes acts preds fuel e fl ok s' E.
    exact (proj1 (pe_PI _ _ _ _ _ _ _ _ read_good _ _ _ _ _ (good_init fl) E)).
  Qed.
End Bounds.

Theorem parse_offset_le_length : forall cmatch rules classes acts preds fuel fl bytes,
  r_off (parse_custom cmatch rules classes acts preds fuel fl bytes) <= N.of_nat (length bytes).
Proof.
  intros cmatch rules classes acts preds fuel fl bytes. unfold parse_custom. cbv zeta.
  destruct (pe _ _ _ _ _ _ _ _ _ _) as [ok s1] eqn:E. cbn [r_off].
  pose proof (pe_good _ _ _ _ _ _ _ _ _ _ _ _ E) as H. unfold good in H. lia.
Qed.

Corollary parse_offset_le_length_nocustom : forall rules classes acts preds fuel fl bytes,
  r_off (parse rules classes acts preds fuel fl bytes) <= N.of_nat (length bytes).
Proof. intros. apply parse_offset_le_length. Qed.

(* a stronger form: the rune under the final cursor lies inside the input as well
   (presult only exports the offset, so this is stated on pe) *)
Theorem pe_final_point_in_input : forall cmatch rules classes acts preds fuel fl bytes ok s1,
  pe (mk_input bytes 0 (PositiveMap.empty N)) (N.of_nat (length bytes)) cmatch rules classes acts preds
     fuel (nth 0 rules (PAny 0))
     (read (mk_input bytes 0 (PositiveMap.empty N)) (N.of_nat (length bytes)) (init_pst fl)) = (ok, s1) ->
  off (cur s1) + w (cur s1) <= N.of_nat (length bytes).
Proof.
  intros cmatch rules classes acts preds fuel fl bytes ok s1 E. exact (pe_good _ _ _ _ _ _ _ _ _ _ _ _ E).
Qed.

(* With o the parser's final offset: data[:o] is a legal slice of exactly o bytes (no slice
   panic), Matched ++ RestInput = input, Matched is a prefix of the input of length <= o <= len,
   and RestInput is the corresponding suffix. *)
Theorem parse_matched_rest_split : forall cmatch rules classes acts preds fuel fl bytes,
  let o := N.to_nat (r_off (parse_custom cmatch rules classes acts preds fuel fl bytes)) in
  (o <= length bytes)%nat /\
  length (firstn o bytes) = o /\
  matched bytes o ++ rest bytes o = bytes /\
  (length (matched bytes o) <= o)%nat /\
  (length (matched bytes o) <= length bytes)%nat /\
  exists k, (k <= o)%nat /\ matched bytes o = firstn k bytes /\ rest bytes o = skipn k bytes.
Proof.
  intros cmatch rules classes acts preds fuel fl bytes o.
  pose proof (parse_offset_le_length cmatch rules classes acts preds fuel fl bytes) as Hle.
  assert (Ho : (o <= length bytes)%nat) by (unfold o; lia).
  pose proof (matched_length_le_offset bytes o) as Hm.
  split; [exact Ho|]. split; [rewrite firstn_length; lia|].
  split; [apply matched_rest_split|]. split; [exact Hm|]. split; [lia|].
  destruct (matched_is_prefix bytes o) as [k (Hk & Hl & Ek)].
  exists k. split; [exact Hk|]. split; [exact Ek|].
  unfold rest. rewrite Ek, firstn_length. f_equal. lia.
Qed.

(* non-vacuity: a custom matcher that claims 1000 bytes on a 3-byte input, consumed by
   ConsumeCustomDice — the cursor stops at the end of the input (offset 3), it does not reach 1000 *)
Example greedy_matcher_stops_at_end :
  let r := parse_custom (fun _ => Some 1000) [PSeq 1 [PAndCode 2 0; PCode 3 0 true]] [] [[ACustomConsume]] [PCustomP]
                        100 [] [49; 50; 51] in
  r_ok r = true /\ r_off r = 3.
Proof. vm_compute. split; reflexivity. Qed.

Print Assumptions parse_offset_le_length.
Print Assumptions parse_matched_rest_split.


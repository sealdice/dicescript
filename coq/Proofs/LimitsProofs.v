(* C07, capacity half: the parser's code buffer (doubling up to a cap, error beyond it) keeps the
   shape cb_ok, from which "overflow is an error" and "no error means nothing was dropped" follow;
   a guarded push into a fixed array stays in bounds when the guard compares with the length. *)
From Coq Require Import NArith List Bool Lia.
From DS Require Import Model.Limits.
Open Scope N_scope.

Definition cb_ok (cap : N) (b : cbuf) : Prop := 0 < b_len b /\ b_idx b <= b_len b /\ b_len b <= cap.

Lemma cb_ok_init cap : 512 <= cap -> cb_ok cap cbuf_init.
Proof. intros H. unfold cb_ok. cbn. lia. Qed.

Lemma cb_ok_write cap b : cb_ok cap b -> cb_ok cap (write_code cap b).
Proof.
  destruct b as [l i e]. unfold cb_ok, write_code. cbn [b_idx b_len]. intros (H0 & H1 & H2).
  destruct (N.ltb_spec i l); cbn [b_idx b_len]; [lia|].
  destruct (N.leb_spec (l * 2) cap); cbn [b_idx b_len]; lia.
Qed.

Lemma cb_ok_writes cap n : forall b, cb_ok cap b -> cb_ok cap (writes cap n b).
Proof. induction n as [|n IH]; intros b H; cbn [writes]; [exact H|]. apply IH, cb_ok_write, H. Qed.

Lemma writes_no_err_all_stored cap n : forall b,
  cb_ok cap b -> b_err (writes cap n b) = false ->
  b_idx (writes cap n b) = b_idx b + N.of_nat n /\ b_err b = false.
Proof.
  induction n as [|n IH]; intros b Hb He; cbn [writes] in *.
  - split; [lia|exact He].
  - destruct (IH (write_code cap b) (cb_ok_write cap b Hb) He) as [E1 E2].
    unfold write_code in *.
    destruct (N.ltb_spec (b_idx b) (b_len b)); cbn in *; [split; [lia|exact E2]|].
    destruct (N.leb_spec (b_len b * 2) cap); cbn in *; [split; [lia|exact E2]|discriminate].
Qed.

Theorem overflow_is_error cap n :
  512 <= cap -> cap < N.of_nat n -> b_err (writes cap n cbuf_init) = true.
Proof.
  intros Hc Hn. destruct (b_err (writes cap n cbuf_init)) eqn:E; [reflexivity|exfalso].
  destruct (writes_no_err_all_stored cap n _ (cb_ok_init cap Hc) E) as [E1 _].
  destruct (cb_ok_writes cap n _ (cb_ok_init cap Hc)) as (_ & B1 & B2). cbn in E1. lia.
Qed.

Theorem no_error_means_complete cap n :
  512 <= cap -> b_err (writes cap n cbuf_init) = false -> b_idx (writes cap n cbuf_init) = N.of_nat n.
Proof. intros Hc E. exact (proj1 (writes_no_err_all_stored cap n _ (cb_ok_init cap Hc) E)). Qed.

Theorem guard_covers_array len thr idx : thr <= len -> guarded_push len thr idx <> PushOutOfBounds.
Proof.
  intros H. unfold guarded_push. destruct (N.leb_spec thr idx); [discriminate|].
  destruct (N.ltb_spec idx len); [discriminate|lia].
Qed.

(* the unrepaired guard `idx > 20`, i.e. threshold 21, on a 20-slot array let index 20 through
   (arguments: length 20, threshold 21, index 20) *)
Theorem old_guard_refuted : guarded_push 20 21 20 = PushOutOfBounds.
Proof. reflexivity. Qed.

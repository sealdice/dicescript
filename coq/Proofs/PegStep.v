(* One unfolding of the packrat interpreter Model/Peg.pe with the recursive call abstracted
   (`pe` has its loops inline, so a lemma about a single step needs them under names), and
   what the operations on parser states do to an invariant that constrains the current point. *)
From Coq Require Import NArith List Bool FMapPositive Lia ZifyBool.
From DS Require Import Model.Peg.
Import ListNotations.
Open Scope N_scope.

Section Body.
  Variable input : PositiveMap.t N.
  Variable ilen : N.
  Variable cmatch : N -> option N.
  Variable rules : list pexpr.
  Variable classes : list (list (N * N * N)).
  Variable acts : list (list aeff).
  Variable preds : list psum.
  Variable P : pexpr -> pst -> bool * pst.

  Definition seq_go (start : pt) :=
    fix go (l : list pexpr) (st : pst) : bool * pst :=
      match l with
      | [] => (true, st)
      | x :: r => let '(ok, st1) := P x st in
                  if ok then go r st1 else (false, restore st1 start)
      end.
  Definition choice_go :=
    fix go (l : list pexpr) (st : pst) : bool * pst :=
      match l with
      | [] => (false, st)
      | x :: r => let '(ok, st1) := P x st in
                  if ok then (true, st1) else go r st1
      end.
  Definition star_loop (e1 : pexpr) :=
    fix loop (k : nat) (st : pst) : bool * pst :=
      match k with
      | O => (true, set_fuelout st)
      | S k => let '(ok, st1) := P e1 st in if ok then loop k st1 else (true, st1)
      end.

  (* &e, !e and their variants that also demand progress (`lex`): e runs in skip mode, for
     the negative forms with the expected-set inverted, and the parser comes back *)
  Definition look (neg lex : bool) (e1 : pexpr) (s : pst) : bool * pst :=
    let '(ok, s1) := P e1 (if neg then upd_inv (upd_skip s true) (negb (inv s)) else upd_skip s true) in
    let moved := negb (off (cur s1) =? off (cur s)) in
    (if lex then (if neg then (if ok then false else moved) else (if ok then moved else false))
     else (if neg then negb ok else ok),
     restore (if neg then upd_inv (upd_skip s1 (skip s)) (inv s) else upd_skip s1 (skip s)) (cur s)).

  Definition eat (hit : bool) (s : pst) : bool * pst :=
    let p := cur s in
    if at_eof p then (false, fail_at false p s)
    else if hit then (true, read input ilen (fail_at true p s)) else (false, fail_at false p s).

  Definition step (fuel : nat) (e : pexpr) (s : pst) : bool * pst :=
    match e with
    | PAction _ fn e1 =>
      if skip s then P e1 s
      else
        let '(ok, s1) := P e1 s in
        if ok then (true, run_action input ilen cmatch acts fn s1) else (false, s1)
    | PSeq _ es => seq_go (cur s) es s
    | PChoice _ es => choice_go es s
    | PLabel _ lab _ e1 =>
      let so := off (cur s) in
      let '(ok, s1) := P e1 s in
      if ok then
        if skip s1 then (true, s1)
        else if lab =? 1 then (true, upd_caps s1 (so, off (cur s1)) (cap_on s1))
        else if lab =? 2 then (true, upd_caps s1 (cap_id s1) (so, off (cur s1)))
        else (true, s1)
      else (false, s1)
    | PAnd _ e1 => look false false e1 s
    | PAndL _ e1 => look false true e1 s
    | PNot _ e1 => look true false e1 s
    | PNotL _ e1 => look true true e1 s
    | POpt _ e1 => let '(_, s1) := P e1 s in (true, s1)
    | PStar _ e1 => star_loop e1 fuel s
    | PPlus _ e1 =>
      let '(ok, s1) := P e1 s in
      if ok then star_loop e1 fuel s1 else (false, s1)
    | PRef _ r => P (nth (N.to_nat r) rules (PAny 0)) s
    | PAndCode _ fn => run_pred input ilen cmatch preds fn s
    | PNotCode _ fn => let '(b, s1) := run_pred input ilen cmatch preds fn s in (negb b, s1)
    | PCode _ fn ns => if (if ns then false else skip s) then (true, s) else (true, run_action input ilen cmatch acts fn s)
    | PLit _ v ic =>
      let start := cur s in
      let '(ok, s1) := match_lit input ilen v ic s in
      if ok then (true, fail_at true start s1)
      else (false, restore (fail_at false start s1) start)
    (* Peg.pe tests for the end of input before it looks the rune up in the class; the lookup
       is a pure function of the point, so passing its result to `eat` is the same term after
       reduction (pe_S is by reflexivity) *)
    | PClass _ chars ranges cls ic inv_ =>
      let r := if ic then to_lower (rn (cur s)) else rn (cur s) in
      eat (xorb (if mem_N r chars then true else if in_ranges r ranges then true else in_any_class classes r cls) inv_) s
    | PAny _ => eat true s
    end.

  Definition pe_body (fuel : nat) (e : pexpr) (s0 : pst) : bool * pst :=
    let s := tick s0 in
    let id := node_id e in
    match memo_get s id with
    | Some (b, p) => (b, restore s p)
    | None =>
      let pos := off (cur s) in
      let '(ok, s1) := step fuel e s in
      (ok, memo_put s1 pos id (ok, cur s1))
    end.
End Body.

Lemma pe_S : forall input ilen cmatch rules classes acts preds fuel e s0,
  pe input ilen cmatch rules classes acts preds (S fuel) e s0 =
  pe_body input ilen cmatch rules classes acts preds (pe input ilen cmatch rules classes acts preds fuel) fuel e s0.
Proof. reflexivity. Qed.

Section States.
  Variable input : PositiveMap.t N.
  Variable ilen : N.
  Local Notation READ := (read input ilen).
  Local Notation memo := (PositiveMap.t (bool * pt)).

  Lemma byte_at_lt : forall o b, byte_at input ilen o = Some b -> o < ilen.
  Proof. intros o b. unfold byte_at. destruct (o <? ilen) eqn:E; [lia|discriminate]. Qed.

  (* every way out of the decoder: the result is in H *)
  Local Ltac leaf := let H := fresh in intros H; injection H as <- <-; split; intros; lia.

  (* Two facts from one walk through the decoder. *)
  Lemma decode_spec : forall o r n, decode input ilen o = (r, n) ->
    (r < 128 -> byte_at input ilen o = Some r /\ n = 1) /\ (o <= ilen -> o + n <= ilen).
  Proof.
    intros o r n. unfold decode, cont, RuneError.
    destruct (byte_at input ilen o) as [b0|] eqn:B0; [|leaf].
    pose proof (byte_at_lt _ _ B0) as L0.
    destruct (b0 <? 128) eqn:E0; [intros H; injection H as <- <-; split; [auto|intros; lia]|].
    destruct (b0 <? 194) eqn:E1; [leaf|].
    destruct (b0 <? 224) eqn:E2.
    { destruct (byte_at input ilen (o + 1)) as [b1|] eqn:B1; [apply byte_at_lt in B1|leaf].
      destruct ((128 <=? b1) && (b1 <=? 191)); leaf. }
    destruct (b0 <? 240) eqn:E3.
    { destruct (byte_at input ilen (o + 1)) as [b1|] eqn:B1; [apply byte_at_lt in B1|leaf].
      destruct (byte_at input ilen (o + 2)) as [b2|] eqn:B2; [apply byte_at_lt in B2|leaf].
      cbv zeta. destruct (b0 =? 224) eqn:Ea; destruct (b0 =? 237) eqn:Eb; (destruct (_ && _ && _) eqn:E; leaf). }
    destruct (b0 <? 245) eqn:E4; [|leaf].
    destruct (byte_at input ilen (o + 1)) as [b1|] eqn:B1; [apply byte_at_lt in B1|leaf].
    destruct (byte_at input ilen (o + 2)) as [b2|] eqn:B2; [apply byte_at_lt in B2|leaf].
    destruct (byte_at input ilen (o + 3)) as [b3|] eqn:B3; [apply byte_at_lt in B3|leaf].
    cbv zeta. destruct (b0 =? 240) eqn:Ea; destruct (b0 =? 244) eqn:Eb; (destruct (_ && _ && _ && _) eqn:E; leaf).
  Qed.

  Lemma read_off : forall s, off (cur (READ s)) = off (cur s) + w (cur s).
  Proof.
    intros s. unfold read. cbv zeta.
    destruct (decode input ilen (off (cur s) + w (cur s))) as [r n].
    destruct ((r =? RuneError) && (n =? 1)); destruct (r =? 10); reflexivity.
  Qed.

  Lemma read_decode : forall s,
    (rn (cur (READ s)), w (cur (READ s))) = decode input ilen (off (cur (READ s))).
  Proof.
    intros s. unfold read. cbv zeta.
    destruct (decode input ilen (off (cur s) + w (cur s))) as [r n] eqn:E.
    destruct ((r =? RuneError) && (n =? 1)); destruct (r =? 10); simpl; auto.
  Qed.

  (* run_action gives the effect interpreter fuel 4096,
     one unit per effect executed; the lists of Gen/Grammar.v are a handful of effects long.
     Nothing proved about run_action depends on the number, and goals that show the numeral are
     slow to work on, so here the fuel is a variable. *)
  Definition action_data (fuel : nat) (acts : list (list aeff)) (fn : N) (s : pst) : pdata :=
    run_effs input ilen fuel (cap_id s) (cap_on s) (off (cur s)) (nth (N.to_nat fn) acts [AUnknown]) (get_data s).

  Lemma run_action_eq : exists fuel, forall cmatch acts fn s,
    run_action input ilen cmatch acts fn s =
    let s' := put_data s (action_data fuel acts fn s) in
    if has_consume (nth (N.to_nat fn) acts [AUnknown]) then custom_consume input ilen cmatch s' else s'.
  Proof. eexists. intros. unfold action_data. reflexivity. Qed.

  Definition MemoQ (Q : pt -> Prop) (m : memo) : Prop :=
    forall k b p, PositiveMap.find k m = Some (b, p) -> Q p.

  Lemma MemoQ_empty : forall Q, MemoQ Q (PositiveMap.empty _).
  Proof. intros Q k b p H. rewrite PositiveMap.gempty in H. discriminate. Qed.

  Lemma MemoQ_add : forall Q m k b p, MemoQ Q m -> Q p -> MemoQ Q (PositiveMap.add k (b, p) m).
  Proof.
    intros Q m k b p Hm Hp k' b' p' Hf. destruct (Pos.eq_dec k' k) as [E|E].
    - subst. rewrite PositiveMap.gss in Hf. inversion Hf; subst; exact Hp.
    - rewrite PositiveMap.gso in Hf; eauto.
  Qed.

  (* Invariants of the interpreter that constrain the current point.  K sees the six fields of
     the state that the invariants proved about `pe` speak of: the current point, the two memo
     tables (whose entries are points to come back to), and of the data that actions work on
     the flags, the flag stack and the opcodes; counters, names and the other helper stacks can
     be added when a proof needs them.  What K asks of the current point is Q. *)
  Variable Q : pt -> Prop.
  Variable K : pt -> memo -> memo -> flags -> list flags -> list N -> Prop.

  Definition holds (s : pst) : Prop := K (cur s) (memo1 s) (memo2 s) (cfg s) (fstack s) (emitted s).

  (* K only moves with the point: Q survives `read`, K gives Q of its point, and K's point may
     be exchanged for any point that has Q.  Then everything that moves the point by reading, or
     back to a point that had Q, keeps `holds`. *)
  Record pointed : Prop := {
    Q_read : forall s, Q (cur s) -> Q (cur (READ s));
    K_cur : forall c m1 m2 cf fs em, K c m1 m2 cf fs em -> Q c;
    K_move : forall c c' m1 m2 cf fs em, K c m1 m2 cf fs em -> Q c' -> K c' m1 m2 cf fs em }.

  Hypothesis W : pointed.

  Lemma holds_cur : forall s, holds s -> Q (cur s).
  Proof. intros s. apply (K_cur W). Qed.

  Lemma holds_restore : forall s p, holds s -> Q p -> holds (restore s p).
  Proof.
    intros s p H Hp. unfold restore. destruct (off p =? off (cur s)); [exact H|].
    exact (K_move W _ _ _ _ _ _ _ H Hp).
  Qed.

  Lemma holds_fail_at : forall m p s, holds s -> holds (fail_at m p s).
  Proof.
    intros m p s H. unfold fail_at. destruct (Bool.eqb m (inv s)); [|exact H].
    destruct (mf s) as [[mo l] c]. destruct (mo <? off p); exact H.
  Qed.

  (* also from a state whose own point does not have Q, as the initial one *)
  Lemma holds_read_from : forall s,
    (forall c, Q c -> K c (memo1 s) (memo2 s) (cfg s) (fstack s) (emitted s)) -> Q (cur (READ s)) ->
    holds (READ s).
  Proof.
    intros s H. unfold read. cbv zeta.
    destruct (decode input ilen (off (cur s) + w (cur s))) as [r n].
    destruct ((r =? RuneError) && (n =? 1)); apply H.
  Qed.

  Lemma holds_read : forall s, holds s -> holds (READ s).
  Proof.
    intros s H. apply holds_read_from.
    - intros c Hc. exact (K_move W _ _ _ _ _ _ _ H Hc).
    - apply (Q_read W), (holds_cur s H).
  Qed.

  Lemma holds_read_until : forall k target s, holds s -> holds (read_until input ilen k target s).
  Proof.
    induction k as [|k IH]; intros target s H; cbn [read_until]; [exact H|].
    destruct (off (cur s) <? target); auto using holds_read.
  Qed.

  Variable cmatch : N -> option N.

  Lemma holds_custom_consume : forall s, holds s -> holds (custom_consume input ilen cmatch s).
  Proof.
    intros s H. unfold custom_consume. destruct (cmatch (off (cur s))) as [len|]; [|exact H].
    destruct (0 <? len); auto using holds_read_until.
  Qed.

  Lemma holds_run_action : forall acts fn s,
    (forall fuel, holds (put_data s (action_data fuel acts fn s))) ->
    holds (run_action input ilen cmatch acts fn s).
  Proof.
    intros acts fn s H. destruct run_action_eq as [fuel E]. rewrite E. cbv zeta.
    destruct (has_consume _); auto using holds_custom_consume.
  Qed.

  (* the predicates touch neither flags nor opcodes *)
  Lemma holds_run_pred : forall preds fn s b s',
    holds s -> run_pred input ilen cmatch preds fn s = (b, s') -> holds s'.
  Proof.
    intros preds fn s b s' H. unfold run_pred.
    destruct (nth (N.to_nat fn) preds PUnknownP) as [f' v|b' err| |]; intros E.
    - inversion E; subst; exact H.
    - inversion E; subst. destruct err; exact H.
    - (* PCustomP: in skip mode the helper advances over the matched text *)
      destruct (cmatch (off (cur s))) as [len|]; [|inversion E; subst; exact H].
      destruct (0 <? len); inversion E; subst; [|exact H].
      destruct (skip s); auto using holds_custom_consume.
    - inversion E; subst; exact H.
  Qed.

  Lemma holds_match_lit : forall l ic s ok s',
    holds s -> match_lit input ilen l ic s = (ok, s') -> holds s'.
  Proof.
    induction l as [|c r IH]; intros ic s ok s' H E; cbn [match_lit] in E.
    - inversion E; subst; exact H.
    - destruct ((if ic then to_lower (rn (cur s)) else rn (cur s)) =? c).
      + eapply IH; [|exact E]. now apply holds_read.
      + inversion E; subst; exact H.
  Qed.

  Lemma holds_eat : forall hit s ok s', holds s -> eat input ilen hit s = (ok, s') -> holds s'.
  Proof.
    intros hit s ok s' H. unfold eat. cbv zeta.
    destruct (at_eof (cur s)); [|destruct hit]; intros E; injection E as _ E; rewrite <- E;
      auto using holds_fail_at, holds_read.
  Qed.

  Section Sub.
    Variable P : pexpr -> pst -> bool * pst.
    Variable e1 : pexpr.
    Hypothesis HP : forall s ok s', holds s -> P e1 s = (ok, s') -> holds s'.

    Lemma holds_star_loop : forall k st ok st', holds st -> star_loop P e1 k st = (ok, st') -> holds st'.
    Proof.
      induction k as [|k IH]; intros st ok st' H Hgo; cbn [star_loop] in Hgo.
      - injection Hgo as _ E. now rewrite <- E.
      - destruct (P e1 st) as [ok1 st1] eqn:E1. pose proof (HP _ _ _ H E1) as H1.
        destruct ok1; [eapply IH; eauto|]. injection Hgo as _ E. now rewrite <- E.
    Qed.

    Lemma holds_look : forall neg lex s ok s1, holds s -> look P neg lex e1 s = (ok, s1) -> holds s1.
    Proof.
      intros neg lex s ok s1 H. unfold look.
      destruct (P e1 _) as [ok1 s'] eqn:E1. intros E. injection E as _ E. rewrite <- E.
      assert (H1 : holds s') by (apply HP with (2 := E1); destruct neg; exact H).
      apply holds_restore; [destruct neg; exact H1|apply (holds_cur s H)].
    Qed.
  End Sub.
End States.

Arguments holds_cur {input ilen Q K} W.
Arguments holds_restore {input ilen Q K} W.
Arguments holds_fail_at {K}.
Arguments holds_read_from {input ilen Q K}.
Arguments holds_read {input ilen Q K} W.
Arguments holds_custom_consume {input ilen Q K} W.
Arguments holds_run_action {input ilen Q K} W.
Arguments holds_run_pred {input ilen Q K} W.
Arguments holds_match_lit {input ilen Q K} W.
Arguments holds_eat {input ilen Q K} W.
Arguments holds_star_loop {K}.
Arguments holds_look {input ilen Q K} W.

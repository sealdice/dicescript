(* Refinement proof: the sequential model of valuemap.go (a sync.Map clone, Model/ValueMap.v)
   behaves, for every history of operations, exactly like an ordinary finite map. *)
From stdpp Require Import gmap sorting.
From Coq Require Import NArith Lia.
From DS Require Import Model.ValueMap.

Local Open Scope N_scope.

Definition key_lt (p q : key * val) : Prop := p.1 < q.1.

Global Instance key_lt_antisymm : AntiSymm (=) key_lt.
Proof. intros p q Hpq Hqp. unfold key_lt in *. lia. Qed.

Lemma insert_pair_perm p l : insert_pair p l ≡ₚ p :: l.
Proof.
  induction l as [|q r IH]; simpl; [done|].
  destruct (p.1 <=? q.1); [done|]. rewrite IH. apply Permutation_swap.
Qed.

Lemma sort_pairs_perm l : sort_pairs l ≡ₚ l.
Proof.
  induction l as [|p l IH]; simpl; [done|].
  unfold sort_pairs in *. simpl. by rewrite insert_pair_perm, IH.
Qed.

Lemma insert_pair_sorted p l :
  Forall (λ q, q.1 ≠ p.1) l →
  StronglySorted key_lt l → StronglySorted key_lt (insert_pair p l).
Proof.
  induction l as [|q r IH]; simpl; intros Hne Hs.
  { repeat constructor. }
  apply Forall_cons in Hne as [Hq Hne].
  apply StronglySorted_inv in Hs as [Hs Hall].
  destruct (N.leb_spec (p.1) (q.1)) as [Hle|Hlt].
  - constructor; [by constructor|]. assert (p.1 < q.1) as Hpq by lia.
    constructor; [done|]. eapply Forall_impl; [exact Hall|].
    unfold key_lt; simpl; intros; lia.
  - constructor; [by apply IH|]. rewrite insert_pair_perm.
    constructor; [done|done].
Qed.

Lemma sort_pairs_sorted l : NoDup (l.*1) → StronglySorted key_lt (sort_pairs l).
Proof.
  induction l as [|p l IH]; simpl; intros Hnd.
  { constructor. }
  apply NoDup_cons in Hnd as [Hp Hnd]. unfold sort_pairs in *; simpl.
  apply insert_pair_sorted; [|by apply IH].
  rewrite Forall_forall. intros q Hq Heq.
  apply Hp. rewrite <-Heq. apply elem_of_list_fmap_1.
  by rewrite <-(sort_pairs_perm l).
Qed.

Lemma sort_pairs_unique l1 l2 :
  NoDup (l1.*1) → l1 ≡ₚ l2 → sort_pairs l1 = sort_pairs l2.
Proof.
  intros Hnd Hp. apply (StronglySorted_unique key_lt).
  - by apply sort_pairs_sorted.
  - apply sort_pairs_sorted. by rewrite <-Hp.
  - by rewrite !sort_pairs_perm.
Qed.

Lemma map_to_list_omap_perm {A B} (f : A → option B) (mp : gmap key A) :
  map_to_list (omap f mp) ≡ₚ
  omap (λ ka, match f ka.2 with Some b => Some (ka.1, b) | None => None end) (map_to_list mp).
Proof.
  induction mp as [|k a mp Hk IH] using map_ind.
  { by rewrite omap_empty, !map_to_list_empty. }
  rewrite (map_to_list_insert mp k a) by done. simpl.
  destruct (f a) as [b|] eqn:Hfa.
  - rewrite (omap_insert_Some f mp k a b) by done.
    rewrite map_to_list_insert; [by rewrite IH|].
    by rewrite lookup_omap, Hk.
  - rewrite (omap_insert_None f mp k a) by done.
    rewrite delete_notin; [done|]. by rewrite lookup_omap, Hk.
Qed.

Lemma live_pairs_perm m mp :
  live_pairs m mp ≡ₚ map_to_list (omap (entry_load m) mp).
Proof.
  rewrite map_to_list_omap_perm. unfold live_pairs.
  erewrite list_omap_ext; [done|].
  apply Forall_Forall2_diag, Forall_forall. intros [k e] _; simpl.
  unfold entry_load. by destruct (get_cell m e).
Qed.

Lemma sort_live_pairs m mp :
  sort_pairs (live_pairs m mp) = sort_pairs (map_to_list (omap (entry_load m) mp)).
Proof.
  apply sort_pairs_unique; [|apply live_pairs_perm].
  rewrite live_pairs_perm. apply NoDup_fst_map_to_list.
Qed.

Lemma live_pairs_length m mp :
  length (live_pairs m mp) = size (omap (entry_load m) mp).
Proof. unfold size, map_size. by rewrite live_pairs_perm. Qed.

Global Instance cell_eq_dec : EqDecision cell.
Proof. solve_decision. Defined.

Local Arguments get_cell : simpl never.
Local Arguments entry_load : simpl never.

(* the map that is complete: dirty when amended, read otherwise *)
Definition full (m : vmap) : gmap key eid :=
  if amended m then default ∅ (dirty m) else rd m.

Definition abs (m : vmap) : gmap key val := omap (entry_load m) (full m).

Record Inv (m : vmap) : Prop := {
  (* I0: the code never panicked *)
  inv_ok : ok m = true;
  (* I1: an amended read map comes with a dirty map *)
  inv_amended : amended m = true → is_Some (dirty m);
  (* I2: non-expunged read entries are shared with the dirty map *)
  inv_rd_dirty : ∀ d k e, dirty m = Some d → rd m !! k = Some e →
      get_cell m e ≠ CExp → d !! k = Some e;
  (* I3: expunged read entries: dirty exists and does not have the key *)
  inv_exp : ∀ k e, rd m !! k = Some e → get_cell m e = CExp →
      ∃ d, dirty m = Some d ∧ d !! k = None;
  (* I4: nothing reachable from dirty is expunged *)
  inv_dirty_noexp : ∀ d k e, dirty m = Some d → d !! k = Some e → get_cell m e ≠ CExp;
  (* I5: not amended: dirty is included in read *)
  inv_clean : amended m = false → ∀ d k e, dirty m = Some d → d !! k = Some e →
      rd m !! k = Some e;
  (* I6: no aliasing of entries, allocator is fresh *)
  inv_inj_rd : ∀ k1 k2 e, rd m !! k1 = Some e → rd m !! k2 = Some e → k1 = k2;
  inv_inj_d : ∀ d k1 k2 e, dirty m = Some d → d !! k1 = Some e → d !! k2 = Some e → k1 = k2;
  inv_inj_rd_d : ∀ d k1 k2 e, dirty m = Some d → rd m !! k1 = Some e → d !! k2 = Some e → k1 = k2;
  inv_fresh_rd : ∀ k e, rd m !! k = Some e → e < nexte m;
  inv_fresh_d : ∀ d k e, dirty m = Some d → d !! k = Some e → e < nexte m;
}.

(* the fields of Inv, in the order of the record, under the names
   Hok Ham Hrd_d Hexp Hnoexp Hclean Hinj_rd Hinj_d Hinj_rdd Hfr_rd Hfr_d *)
Ltac inv_destruct H :=
  destruct H as [Hok Ham Hrd_d Hexp Hnoexp Hclean Hinj_rd Hinj_d Hinj_rdd Hfr_rd Hfr_d].

(* get_cell on a bare heap of cells *)
Definition cget (cs : gmap eid cell) (e : eid) : cell := default CNil (cs !! e).

Lemma cget_insert cs e c e' :
  cget (<[e:=c]> cs) e' = if decide (e' = e) then c else cget cs e'.
Proof. unfold cget. destruct (decide (e' = e)) as [->|]; by simplify_map_eq. Qed.

Lemma get_cell_set_cell m e c e' :
  get_cell (set_cell m e c) e' = if decide (e' = e) then c else get_cell m e'.
Proof. apply cget_insert. Qed.

Definition cell_val (c : cell) : option val := match c with CVal v => Some v | _ => None end.

Lemma entry_load_cell m e : entry_load m e = cell_val (get_cell m e).
Proof. done. Qed.

Lemma abs_lookup_full m k : abs m !! k = full m !! k ≫= entry_load m.
Proof. unfold abs. by rewrite lookup_omap. Qed.

Lemma full_amended m : Inv m → amended m = true → dirty m = Some (full m).
Proof.
  intros HI Hamd. unfold full. rewrite Hamd.
  by destruct (inv_amended _ HI Hamd) as [d ->].
Qed.

Lemma full_inj m k1 k2 e :
  Inv m → full m !! k1 = Some e → full m !! k2 = Some e → k1 = k2.
Proof.
  intros HI. destruct (amended m) eqn:Hamd.
  - apply (inv_inj_d _ HI), full_amended; done.
  - unfold full. rewrite Hamd. apply (inv_inj_rd _ HI).
Qed.

Lemma rd_dirty_load m d k e :
  Inv m → dirty m = Some d → rd m !! k = Some e → d !! k ≫= entry_load m = entry_load m e.
Proof.
  intros HI Hd Hk. destruct (decide (get_cell m e = CExp)) as [He|He].
  - destruct (inv_exp _ HI k e Hk He) as (d' & Hd' & Hk'). simplify_eq.
    by rewrite Hk', entry_load_cell, He.
  - by rewrite (inv_rd_dirty _ HI d k e Hd Hk He).
Qed.

Lemma rd_full_load m k e :
  Inv m → rd m !! k = Some e → full m !! k ≫= entry_load m = entry_load m e.
Proof.
  intros HI Hk. destruct (amended m) eqn:Hamd.
  - apply rd_dirty_load; [done|by apply full_amended|done].
  - unfold full. by rewrite Hamd, Hk.
Qed.

Lemma abs_lookup_spec m k : Inv m → abs m !! k = abs_lookup m k.
Proof.
  intros HI. rewrite abs_lookup_full. unfold abs_lookup.
  destruct (rd m !! k) as [e|] eqn:Hk; [by apply rd_full_load|].
  unfold full, lookup_live. destruct (amended m); [|by rewrite Hk].
  by destruct (default ∅ (dirty m) !! k).
Qed.

Lemma full_of_rd m k e :
  Inv m → rd m !! k = Some e → get_cell m e ≠ CExp → full m !! k = Some e.
Proof.
  intros HI Hk He. destruct (amended m) eqn:Hamd.
  - apply (inv_rd_dirty _ HI _ k e (full_amended m HI Hamd) Hk He).
  - unfold full. by rewrite Hamd.
Qed.

Lemma abs_None m k :
  Inv m → rd m !! k = None → dirty_get m k = None → abs m !! k = None.
Proof.
  intros HI Hk Hdk. rewrite abs_lookup_spec by done. unfold abs_lookup, lookup_live.
  rewrite Hk. destruct (amended m); [|done]. unfold dirty_get in Hdk.
  destruct (dirty m); simpl; [by rewrite Hdk|by rewrite lookup_empty].
Qed.

Lemma dirty_get_full m k e :
  Inv m → rd m !! k = None → dirty_get m k = Some e →
  amended m = true ∧ full m !! k = Some e ∧ get_cell m e ≠ CExp.
Proof.
  intros HI Hk Hdk. unfold dirty_get in Hdk.
  destruct (dirty m) as [d|] eqn:Hd; [|done].
  destruct (amended m) eqn:Hamd.
  - rewrite (full_amended m HI Hamd) in Hd. injection Hd as <-.
    split_and!; [done|done|]. by apply (inv_dirty_noexp _ HI _ k e (full_amended m HI Hamd)).
  - rewrite (inv_clean _ HI Hamd d k e Hd Hdk) in Hk. done.
Qed.

Lemma abs_ext m m' :
  full m' = full m → (∀ k e, full m !! k = Some e → entry_load m' e = entry_load m e) →
  abs m' = abs m.
Proof.
  intros Hf Hl. apply map_eq; intros k. rewrite !abs_lookup_full, Hf.
  destruct (full m !! k) eqn:Hk; simpl; eauto.
Qed.

(* Covers a store to or a delete of a reachable entry, unexpunging and the allocation of a
   fresh entry. *)
Lemma abs_put m m' k e :
  full m' = <[k:=e]> (full m) → (∀ k', full m !! k' = Some e → k' = k) →
  (∀ e', e' ≠ e → entry_load m' e' = entry_load m e') →
  abs m' = partial_alter (λ _, entry_load m' e) k (abs m).
Proof.
  intros Hf Hinj Hl. apply map_eq; intros k'. rewrite abs_lookup_full, Hf.
  destruct (decide (k' = k)) as [->|Hne].
  - by rewrite lookup_insert, lookup_partial_alter.
  - rewrite lookup_insert_ne, lookup_partial_alter_ne, abs_lookup_full by done.
    destruct (full m !! k') as [e'|] eqn:Hk'; simpl; [|done].
    apply Hl. intros ->. eauto.
Qed.

Lemma Inv_set_cell m e c :
  Inv m → get_cell m e ≠ CExp → c ≠ CExp → Inv (set_cell m e c).
Proof.
  intros HI He Hc. inv_destruct HI. split; simpl; try done.
  - intros d k e' Hd Hk. rewrite get_cell_set_cell. destruct (decide (e' = e)) as [->|]; eauto.
  - intros k e' Hk. rewrite get_cell_set_cell. destruct decide; [done|]; eauto.
  - intros d k e' Hd Hk. rewrite get_cell_set_cell. destruct decide; eauto.
Qed.

Lemma set_cell_spec m k e c :
  Inv m → full m !! k = Some e → get_cell m e ≠ CExp → c ≠ CExp →
  Inv (set_cell m e c) ∧ abs (set_cell m e c) = partial_alter (λ _, cell_val c) k (abs m).
Proof.
  intros HI Hk He Hc. split; [by apply Inv_set_cell|]. rewrite (abs_put m _ k e).
  - by rewrite entry_load_cell, get_cell_set_cell, decide_True.
  - symmetry. by apply insert_id.
  - intros k' Hk'. by apply (full_inj m k' k e).
  - intros e' Hne. by rewrite !entry_load_cell, get_cell_set_cell, decide_False.
Qed.

(* m.dirty[k] = e together with a write of c to e's cell: e is an expunged entry that read
   holds at k (unexpungeLocked), or a newly allocated one. *)
Definition put (m : vmap) (d : gmap key eid) (k : key) (e : eid) (c : cell) (n : eid) : vmap :=
  {| rd := rd m; amended := amended m; dirty := Some (<[k:=e]> d); misses := misses m;
     cells := <[e:=c]> (cells m); nexte := n; ok := ok m |}.

Lemma put_spec m d k e c n :
  Inv m → dirty m = Some d → c ≠ CExp → nexte m ≤ n → e < n →
  (∀ k', d !! k' ≠ Some e) →
  (∀ k' (e' : eid), rd m !! k' = Some e' → k' = k ↔ e' = e) →
  (amended m = false → rd m !! k = Some e) →
  Inv (put m d k e c n) ∧
  abs (put m d k e c n) = partial_alter (λ _, cell_val c) k (abs m).
Proof.
  intros HI Hd Hc Hn He Hd_e Hrd_e Hcl. set (m' := put m d k e c n).
  assert (∀ e', get_cell m' e' = if decide (e' = e) then c else get_cell m e') as Hg
    by exact (get_cell_set_cell m e c).
  split.
  - inv_destruct HI. split; simpl; try done.
    + intros ? k' e' [= <-] Hk'. rewrite Hg. destruct (decide (k' = k)) as [->|Hne].
      * pose proof (proj1 (Hrd_e _ _ Hk') eq_refl) as ->. by rewrite lookup_insert.
      * rewrite lookup_insert_ne, decide_False by (done || by rewrite <-(Hrd_e _ _ Hk')). eauto.
    + intros k' e' Hk'. rewrite Hg. destruct (decide (e' = e)) as [->|Hne]; [done|].
      intros (d' & Hd' & Hk'')%(Hexp _ _ Hk'). simplify_eq. eexists; split; [done|].
      rewrite lookup_insert_ne; [done|]. intros <-. by apply Hne, (Hrd_e _ _ Hk').
    + intros ? k' e' [= <-] [[<- <-]|[Hne Hk']]%lookup_insert_Some; rewrite Hg.
      * by rewrite decide_True.
      * rewrite decide_False by (intros ->; by apply (Hd_e k')). eauto.
    + intros Hamd ? k' e' [= <-] [[<- <-]|[Hne Hk']]%lookup_insert_Some; eauto.
    + intros ? k1 k2 e' [= <-] [[<- <-]|[Hne1 Hk1]]%lookup_insert_Some
        [[<- He']|[Hne2 Hk2]]%lookup_insert_Some; try done.
      * by destruct (Hd_e k2).
      * subst e'. by destruct (Hd_e k1).
      * eauto.
    + intros ? k1 k2 e' [= <-] Hk1 [[<- <-]|[Hne2 Hk2]]%lookup_insert_Some.
      * by apply (Hrd_e _ _ Hk1).
      * eauto.
    + intros k' e' Hk'%Hfr_rd. lia.
    + intros ? k' e' [= <-] [[<- <-]|[Hne Hk']]%lookup_insert_Some; [done|].
      apply (Hfr_d _ _ _ Hd) in Hk'. lia.
  - rewrite (abs_put m m' k e).
    + by rewrite entry_load_cell, Hg, decide_True.
    + unfold full; simpl. destruct (amended m) eqn:Hamd; [by rewrite Hd|].
      symmetry. by apply insert_id, Hcl.
    + unfold full. rewrite Hd. destruct (amended m); simpl; intros k' Hk'.
      * by destruct (Hd_e k').
      * by apply (Hrd_e _ _ Hk').
    + intros e' Hne. by rewrite !entry_load_cell, Hg, decide_False.
Qed.

(* unexpungeLocked followed by m.dirty[k] = e *)
Lemma unexpunge_spec m k e :
  Inv m → rd m !! k = Some e → get_cell m e = CExp →
  let m' := dirty_put (set_cell m e CNil) k e in
  Inv m' ∧ abs m' = abs m ∧ full m' !! k = Some e ∧ get_cell m' e = CNil.
Proof.
  intros HI Hk He. destruct (inv_exp _ HI k e Hk He) as (d & Hd & _).
  unfold dirty_put; simpl. rewrite Hd. fold (put m d k e CNil (nexte m)).
  destruct (put_spec m d k e CNil (nexte m)) as [HI' Habs]; try done || lia.
  - by apply (inv_fresh_rd _ HI k).
  - intros k' Hk'. by apply (inv_dirty_noexp _ HI d k' e).
  - intros k' e' Hk'. split; [intros ->; congruence|intros ->; by apply (inv_inj_rd _ HI k' k e)].
  - split_and!; [done| | |].
    + rewrite Habs. apply partial_alter_self_alt.
      by rewrite abs_lookup_full, (rd_full_load m k e HI Hk), entry_load_cell, He.
    + unfold full; simpl. destruct (amended m); [apply lookup_insert|done].
    + unfold get_cell; simpl. by rewrite lookup_insert.
Qed.

Lemma add_new_amended m k v :
  Inv m → amended m = true → rd m !! k = None → dirty_get m k = None →
  Inv (add_new m k v) ∧ abs (add_new m k v) = <[k:=v]> (abs m).
Proof.
  intros HI Hamd Hk Hdk. pose proof (full_amended m HI Hamd) as Hd.
  unfold add_new, dirty_put. rewrite Hamd; simpl. rewrite Hd.
  apply (put_spec m (full m) k (nexte m) (CVal v) (nexte m + 1)); try done || lia.
  - intros k' Hk'%(inv_fresh_d _ HI _ _ _ Hd). lia.
  - intros k' e' Hk'. split; [intros ->; by simplify_eq|]. intros ->.
    apply (inv_fresh_rd _ HI) in Hk'. lia.
  - congruence.
Qed.

Lemma dirty_del_spec m k :
  Inv m → amended m = true → rd m !! k = None →
  let m' := dirty_del m k in
  Inv m' ∧ abs m' = delete k (abs m) ∧ amended m' = true ∧ cells m' = cells m ∧
  (∀ e, dirty_get m k = Some e → ∀ k', full m' !! k' ≠ Some e).
Proof.
  intros HI Hamd Hk. inv_destruct HI. destruct (Ham Hamd) as [d Hd].
  unfold dirty_del, dirty_get. rewrite Hd.
  split_and!; [|unfold abs, full; simpl; rewrite Hamd, Hd; apply omap_delete|done..|].
  - split; simpl; try done.
    + intros ? k' e' [= <-] Hk'. rewrite lookup_delete_ne by congruence. eauto.
    + intros k' e' Hk' (d' & Hd' & Hk'')%(Hexp _ _ Hk'). simplify_eq.
      eexists; split; [done|]. rewrite lookup_delete_None; by right.
    + intros ? k' e' [= <-] [_ ?]%lookup_delete_Some. eauto.
    + by rewrite Hamd.
    + intros ? k1 k2 e' [= <-] [_ ?]%lookup_delete_Some [_ ?]%lookup_delete_Some. eauto.
    + intros ? k1 k2 e' [= <-] ? [_ ?]%lookup_delete_Some. eauto.
    + intros ? k' e' [= <-] [_ ?]%lookup_delete_Some. eauto.
  - unfold full; simpl. rewrite Hamd; simpl.
    intros e He k' [Hne Hk']%lookup_delete_Some. apply Hne. eauto.
Qed.

Lemma vm_clear_spec m : Inv m → Inv (vm_clear m) ∧ abs (vm_clear m) = ∅.
Proof.
  intros HI. unfold vm_clear.
  destruct ((size (rd m) =? 0)%nat && negb (amended m)) eqn:Hc.
  - split; [done|]. apply andb_true_iff in Hc as [Hs Hamd].
    apply Nat.eqb_eq, map_size_empty_inv in Hs. apply negb_true_iff in Hamd.
    unfold abs, full. by rewrite Hamd, Hs, omap_empty.
  - inv_destruct HI. split.
    + split; simpl; try done; intros; by simplify_map_eq.
    + unfold abs, full; simpl. by rewrite omap_empty.
Qed.

(* promotion of the dirty map, as done by missLocked and by Range *)
Definition promoted (m : vmap) : vmap :=
  {| rd := default ∅ (dirty m); amended := false; dirty := None; misses := 0;
     cells := cells m; nexte := nexte m; ok := ok m |}.

Lemma promoted_spec m :
  Inv m → amended m = true → Inv (promoted m) ∧ abs (promoted m) = abs m.
Proof.
  intros HI Hamd. pose proof (full_amended m HI Hamd) as Hd. inv_destruct HI. split.
  - split; simpl; rewrite ?Hd; simpl; try done; eauto.
    intros k e Hk He. by destruct (Hnoexp _ k e Hd).
  - unfold abs, full; simpl. by rewrite Hamd.
Qed.

Lemma miss_locked_spec m :
  Inv m → amended m = true →
  Inv (miss_locked m) ∧ abs (miss_locked m) = abs m ∧ full (miss_locked m) = full m ∧
  cells (miss_locked m) = cells m.
Proof.
  intros HI Hamd. unfold miss_locked. destruct (_ <? _)%nat.
  - split_and!; [by destruct HI|done..].
  - destruct (promoted_spec m HI Hamd). split_and!; [done..| |done].
    unfold full; simpl. by rewrite Hamd.
Qed.

(* tryExpungeLocked *)
Definition expunge (c : cell) : cell := match c with CNil => CExp | _ => c end.

(* the loop body of dirtyLocked *)
Definition dl_step (acc : gmap key eid * gmap eid cell) (ke : key * eid) :=
  let '(d, cs) := acc in let '(k, e) := ke in
  match cget cs e with
  | CNil => (d, <[e := CExp]> cs)
  | CExp => (d, cs)
  | CVal _ => (<[k := e]> d, cs)
  end.

Lemma dirty_locked_None m :
  dirty m = None →
  dirty_locked m =
    let '(d, cs) := fold_left dl_step (map_to_list (rd m)) (∅, cells m) in
    {| rd := rd m; amended := amended m; dirty := Some d; misses := misses m;
       cells := cs; nexte := nexte m; ok := ok m |}.
Proof. unfold dirty_locked. by intros ->. Qed.

Lemma dl_step_cells acc ke e :
  cget (dl_step acc ke).2 e =
    if decide (e = ke.2) then expunge (cget acc.2 ke.2) else cget acc.2 e.
Proof.
  destruct acc as [d cs], ke as [k e0]; simpl.
  destruct (cget cs e0) eqn:Hc; simpl; rewrite ?cget_insert;
    destruct (decide (e = e0)) as [->|]; done.
Qed.

Lemma dl_step_dirty acc ke :
  (dl_step acc ke).1 = if cell_val (cget acc.2 ke.2) then <[ke.1:=ke.2]> acc.1 else acc.1.
Proof. destruct acc as [d cs], ke as [k e]; simpl. by destruct (cget cs e). Qed.

Lemma dl_fold_cells l : ∀ acc e,
  cget (fold_left dl_step l acc).2 e =
    if decide (e ∈ l.*2) then expunge (cget acc.2 e) else cget acc.2 e.
Proof.
  induction l as [|ke l IH]; intros acc e; [done|].
  cbn [fold_left]. rewrite IH, dl_step_cells, fmap_cons. destruct (decide (e = ke.2)) as [->|Hne].
  - rewrite (decide_True (P := _ ∈ _ :: _)) by left. by destruct (cget acc.2 ke.2), decide.
  - destruct (decide (e ∈ l.*2)).
    + by rewrite decide_True by (by right).
    + by rewrite decide_False by (by intros [?|?]%elem_of_cons).
Qed.

Lemma dl_fold_dirty l : NoDup l.*1 → ∀ acc k,
  (fold_left dl_step l acc).1 !! k =
    match (list_to_map l : gmap key eid) !! k with
    | Some e => if cell_val (cget acc.2 e) then Some e else acc.1 !! k
    | None => acc.1 !! k
    end.
Proof.
  induction l as [|[k0 e0] l IH]; intros Hnd acc k; simpl; [by rewrite lookup_empty|].
  apply NoDup_cons in Hnd as [Hk0 Hnd]. rewrite IH, dl_step_dirty by done; simpl.
  destruct (decide (k = k0)) as [->|Hne].
  - rewrite lookup_insert, (not_elem_of_list_to_map_1 _ _ Hk0).
    by destruct (cell_val (cget acc.2 e0)); rewrite ?lookup_insert.
  - assert ((if cell_val (cget acc.2 e0) then <[k0:=e0]> acc.1 else acc.1) !! k = acc.1 !! k)
      as -> by (by destruct (cell_val _); rewrite ?lookup_insert_ne).
    rewrite lookup_insert_ne by done. destruct (list_to_map l !! k) as [e|]; [|done].
    rewrite dl_step_cells. simpl. destruct (decide (e = e0)) as [->|]; [|done].
    by destruct (cget acc.2 e0).
Qed.

(* the transition `if !read.amended { m.dirtyLocked(); read.amended = true }` *)
Lemma dirty_locked_spec m :
  Inv m → amended m = false →
  let m' := set_amended (dirty_locked m) true in
  Inv m' ∧ abs m' = abs m ∧ amended m' = true ∧ rd m' = rd m ∧
  (∀ k, rd m !! k = None → dirty_get m' k = None).
Proof.
  intros HI Hamd. destruct (dirty m) as [d|] eqn:Hd; inv_destruct HI.
  - (* dirty already allocated (after Clear): it is included in read *)
    assert (dirty_locked m = m) as -> by (unfold dirty_locked; by rewrite Hd).
    assert (∀ k, rd m !! k = None → d !! k = None) as Hsub.
    { intros k Hk. destruct (d !! k) as [e|] eqn:Hk'; [|done].
      by rewrite (Hclean Hamd d k e Hd Hk') in Hk. }
    split_and!; [by split|..|done|done|].
    + apply map_eq; intros k. rewrite !abs_lookup_full. unfold full; simpl. rewrite Hamd, Hd; simpl.
      destruct (rd m !! k) as [e|] eqn:Hk; [|by rewrite Hsub].
      by apply (rd_dirty_load m).
    + unfold dirty_get; simpl. by rewrite Hd.
  - rewrite (dirty_locked_None m Hd).
    pose proof (dl_fold_dirty _ (NoDup_fst_map_to_list (rd m)) (∅, cells m)) as Hraw.
    pose proof (dl_fold_cells (map_to_list (rd m)) (∅, cells m)) as Hc'.
    destruct (fold_left dl_step _ _) as [d' cs']. cbn [fst snd] in Hraw, Hc'. intros m'.
    change (∀ e, get_cell m' e = if decide (e ∈ (map_to_list (rd m)).*2)
      then expunge (get_cell m e) else get_cell m e) in Hc'.
    assert (∀ k, d' !! k = e ← rd m !! k; if cell_val (get_cell m e) then Some e else None) as Hd'.
    { intros k. rewrite Hraw, list_to_map_to_list, lookup_empty. by destruct (rd m !! k). }
    assert (∀ k e, rd m !! k = Some e → get_cell m' e = expunge (get_cell m e)) as Hrd_c.
    { intros k e Hk. rewrite Hc', decide_True; [done|].
      apply (elem_of_list_fmap_1 snd _ (k, e)). by apply elem_of_map_to_list. }
    assert (∀ e, entry_load m' e = entry_load m e) as Hl.
    { intros e. rewrite !entry_load_cell, Hc'. destruct decide; [|done]. by destruct (get_cell m e). }
    assert (∀ k e, d' !! k = Some e → rd m !! k = Some e ∧ ∃ v, get_cell m e = CVal v) as Hsub.
    { intros k e. rewrite Hd'. destruct (rd m !! k) as [e'|]; simpl; [|done].
      destruct (get_cell m e') eqn:Hc; simpl; try done. intros [= ->]. eauto. }
    split_and!; try done.
    + split; simpl; try done.
      * intros ? k e [= <-] Hk. rewrite (Hrd_c k e Hk), Hd', Hk; simpl.
        by destruct (get_cell m e).
      * intros k e Hk. rewrite (Hrd_c k e Hk). intros He. eexists; split; [done|].
        rewrite Hd', Hk; simpl. by destruct (get_cell m e).
      * intros ? k e [= <-] [Hk [v Hv]]%Hsub. by rewrite (Hrd_c k e Hk), Hv.
      * intros ? k1 k2 e [= <-] [Hk1 _]%Hsub [Hk2 _]%Hsub. eauto.
      * intros ? k1 k2 e [= <-] Hk1 [Hk2 _]%Hsub. eauto.
      * intros ? k e [= <-] [Hk _]%Hsub. eauto.
    + apply map_eq; intros k. rewrite !abs_lookup_full. unfold full; simpl. rewrite Hamd, Hd'.
      destruct (rd m !! k) as [e|]; simpl; [|done].
      destruct (cell_val (get_cell m e)) eqn:Hv; simpl; [apply Hl|].
      by rewrite entry_load_cell, Hv.
    + intros k Hk. unfold dirty_get; simpl. by rewrite Hd', Hk.
Qed.

Lemma add_new_spec m k v :
  Inv m → rd m !! k = None → dirty_get m k = None →
  Inv (add_new m k v) ∧ abs (add_new m k v) = <[k:=v]> (abs m).
Proof.
  intros HI Hk Hdk. destruct (amended m) eqn:Hamd; [by apply add_new_amended|].
  destruct (dirty_locked_spec m HI Hamd) as (HI' & <- & Hamd' & Hr' & Hdk').
  replace (add_new m k v) with (add_new (set_amended (dirty_locked m) true) k v)
    by (unfold add_new; by rewrite Hamd).
  apply add_new_amended; [done|done|by rewrite Hr'|by apply Hdk'].
Qed.

Lemma vm_load_spec m k :
  Inv m →
  Inv (vm_load m k).1 ∧ (vm_load m k).2 = abs m !! k ∧ abs (vm_load m k).1 = abs m.
Proof.
  intros HI. rewrite abs_lookup_spec by done. unfold vm_load, abs_lookup.
  destruct (rd m !! k) as [e|] eqn:Hk; simpl; [done|].
  destruct (amended m) eqn:Hamd; simpl; [|done].
  destruct (miss_locked_spec m HI Hamd) as (HI' & Habs' & _).
  split_and!; [done| |done]. unfold lookup_live, dirty_get.
  destruct (dirty m); simpl; [done|by rewrite lookup_empty].
Qed.

Lemma vm_store_spec m k v :
  Inv m → Inv (vm_store m k v) ∧ abs (vm_store m k v) = <[k:=v]> (abs m).
Proof.
  intros HI. unfold vm_store. destruct (rd m !! k) as [e|] eqn:Hk.
  - destruct (get_cell m e) eqn:He.
    2: { destruct (unexpunge_spec m k e HI Hk He) as (HI' & <- & Hk' & He').
         apply set_cell_spec; [done|done|by rewrite He'|done]. }
    all: apply set_cell_spec; [done|apply full_of_rd; [done..|by rewrite He]|by rewrite He|done].
  - destruct (dirty_get m k) as [e|] eqn:Hdk.
    + destruct (dirty_get_full m k e HI Hk Hdk) as (_ & Hf & He). by apply set_cell_spec.
    + by apply add_new_spec.
Qed.

Lemma entry_load_or_store_spec m k e v :
  Inv m → full m !! k = Some e → get_cell m e ≠ CExp →
  let r := entry_load_or_store m e v in
  Inv r.1 ∧ (abs r.1, ROptB r.2.1 r.2.2) = spec_step (abs m) (OLoadOrStore k v) ∧
  amended r.1 = amended m.
Proof.
  intros HI Hk He. unfold entry_load_or_store; simpl.
  rewrite abs_lookup_full, Hk; simpl. rewrite entry_load_cell.
  destruct (get_cell m e) eqn:Hc; simpl; [|done..].
  by destruct (set_cell_spec m k e (CVal v) HI Hk) as [HI' ->]; [rewrite Hc| |].
Qed.

Lemma vm_load_or_store_spec m k v :
  Inv m →
  let r := vm_load_or_store m k v in
  Inv r.1 ∧ (abs r.1, ROptB r.2.1 r.2.2) = spec_step (abs m) (OLoadOrStore k v).
Proof.
  intros HI. unfold vm_load_or_store. destruct (rd m !! k) as [e|] eqn:Hk.
  - destruct (get_cell m e) eqn:He.
    2: { destruct (unexpunge_spec m k e HI Hk He) as (HI' & <- & Hk' & He').
         by destruct (entry_load_or_store_spec _ k e v HI' Hk') as (?&?&_); [rewrite He'|]. }
    all: by destruct (entry_load_or_store_spec m k e v HI) as (?&?&_);
      [apply full_of_rd; [..|rewrite He]|rewrite He|].
  - destruct (dirty_get m k) as [e|] eqn:Hdk.
    + destruct (dirty_get_full m k e HI Hk Hdk) as (Hamd & Hf & He).
      destruct (entry_load_or_store_spec m k e v HI Hf He) as (HI1 & <- & Hamd1).
      destruct (entry_load_or_store m e v) as [m1 r]; simpl in *.
      destruct (miss_locked_spec m1 HI1) as (HI2 & -> & _); [congruence|done].
    + destruct (add_new_spec m k v HI Hk Hdk) as [HI' Habs']. simpl. unfold spec.
      by rewrite Habs', (abs_None m k HI Hk Hdk).
Qed.

Lemma entry_delete_spec m k e :
  Inv m → full m !! k = Some e →
  let r := entry_delete m e in
  Inv r.1 ∧ r.2 = abs m !! k ∧ abs r.1 = delete k (abs m).
Proof.
  intros HI Hk. assert (abs m !! k = cell_val (get_cell m e)) as Habs.
  { by rewrite abs_lookup_full, Hk. }
  unfold entry_delete. destruct (get_cell m e) eqn:Hc; simpl in *; [by rewrite delete_notin..|].
  by destruct (set_cell_spec m k e CNil HI Hk) as [HI' ->]; [rewrite Hc| |].
Qed.

(* LoadAndDelete; Delete is the same code with the result dropped *)
Lemma vm_load_and_delete_spec m k :
  Inv m →
  let r := vm_load_and_delete m k in
  Inv r.1 ∧ r.2 = abs m !! k ∧ abs r.1 = delete k (abs m).
Proof.
  intros HI. unfold vm_load_and_delete. destruct (rd m !! k) as [e|] eqn:Hk.
  - destruct (decide (get_cell m e = CExp)) as [He|He]; [|by apply entry_delete_spec, full_of_rd].
    assert (abs m !! k = None) as Habs.
    { by rewrite abs_lookup_full, (rd_full_load m k e), entry_load_cell, He. }
    unfold entry_delete. rewrite He, Habs; simpl. by rewrite delete_notin.
  - destruct (amended m) eqn:Hamd.
    + destruct (dirty_del_spec m k HI Hamd Hk) as (HI0 & Habs0 & Hamd0 & Hc0 & Hun0).
      destruct (miss_locked_spec _ HI0 Hamd0) as (HI1 & Habs1 & Hf1 & Hc1).
      set (m1 := miss_locked (dirty_del m k)) in *.
      destruct (dirty_get m k) as [e|] eqn:Hdk.
      * (* the entry is no longer reachable, and still holds what k was bound to *)
        destruct (dirty_get_full m k e HI Hk Hdk) as (_ & Hf & He).
        assert (get_cell m1 e = get_cell m e) as Hg by (unfold get_cell; by rewrite Hc1, Hc0).
        rewrite abs_lookup_full, Hf; simpl. rewrite entry_load_cell.
        unfold entry_delete. rewrite Hg.
        destruct (get_cell m e) eqn:Hc; simpl; try (split_and!; [done|done|congruence]).
        split_and!; [apply Inv_set_cell; [done|by rewrite Hg|done]|done|].
        rewrite <-Habs0, <-Habs1. apply abs_ext; [done|]. intros k' e' Hk'.
        rewrite !entry_load_cell, get_cell_set_cell, decide_False; [done|].
        intros ->. rewrite Hf1 in Hk'. by apply (Hun0 e eq_refl k').
      * simpl. rewrite (abs_None m k HI Hk Hdk). split_and!; [done|done|congruence].
    + simpl. assert (abs m !! k = None) as Habs.
      { rewrite abs_lookup_spec by done. unfold abs_lookup. by rewrite Hk, Hamd. }
      by rewrite Habs, delete_notin.
Qed.

Lemma vm_range_spec m :
  Inv m →
  Inv (vm_range m).1 ∧ sort_pairs (vm_range m).2 = sort_pairs (map_to_list (abs m)) ∧
  abs (vm_range m).1 = abs m.
Proof.
  intros HI. unfold vm_range; simpl. rewrite sort_live_pairs.
  assert (Inv (promote m) ∧ abs (promote m) = abs m ∧ amended (promote m) = false)
    as (HI' & Habs' & Hamd').
  { unfold promote. destruct (amended m) eqn:Hamd; [|done].
    by destruct (promoted_spec m HI Hamd). }
  split_and!; [done| |done]. rewrite <-Habs'. unfold abs, full. by rewrite Hamd'.
Qed.

Lemma vm_length_spec m : vm_length m = size (abs m).
Proof.
  unfold vm_length, abs, full. destruct (amended m); apply live_pairs_length.
Qed.

Lemma inv_init : Inv vm_init.
Proof. split; simpl; try done; intros; by simplify_map_eq. Qed.

Lemma abs_init : abs vm_init = ∅.
Proof. unfold abs, full; simpl. apply omap_empty. Qed.

Local Arguments sort_pairs : simpl never.

Lemma step_spec m o :
  Inv m →
  Inv (vm_step m o).1 ∧
  (vm_step m o).2 = (spec_step (abs m) o).2 ∧
  abs (vm_step m o).1 = (spec_step (abs m) o).1.
Proof.
  intros HI. destruct o as [k|k v|k v|k|k| | |]; simpl.
  - pose proof (vm_load_spec m k HI) as (? & ? & ?).
    destruct (vm_load m k) as [m' r]; simpl in *. by subst.
  - pose proof (vm_store_spec m k v HI) as (? & ?). done.
  - pose proof (vm_load_or_store_spec m k v HI) as (? & Hr).
    destruct (vm_load_or_store m k v) as [m' [r b]]; simpl in *. by rewrite <-Hr.
  - pose proof (vm_load_and_delete_spec m k HI) as (? & ? & ?).
    destruct (vm_load_and_delete m k) as [m' r]; simpl in *. by subst.
  - pose proof (vm_load_and_delete_spec m k HI) as (? & ? & ?).
    destruct (vm_load_and_delete m k) as [m' r]; simpl in *. by subst.
  - pose proof (vm_clear_spec m HI) as (? & ?). done.
  - pose proof (vm_range_spec m HI) as (? & Hr & ?).
    unfold vm_range in *; simpl in *. by rewrite Hr.
  - by rewrite vm_length_spec.
Qed.

Theorem inv_step m o : Inv m → Inv (vm_step m o).1.
Proof. intros HI. apply step_spec, HI. Qed.

Theorem refines_step m o :
  Inv m →
  (vm_step m o).2 = (spec_step (abs m) o).2 ∧
  abs (vm_step m o).1 = (spec_step (abs m) o).1.
Proof. intros HI. apply step_spec, HI. Qed.

Lemma refines_run_gen ops : ∀ m,
  Inv m →
  Inv (vm_run m ops).1 ∧
  (vm_run m ops).2 = (spec_run (abs m) ops).2 ∧
  abs (vm_run m ops).1 = (spec_run (abs m) ops).1.
Proof.
  induction ops as [|o ops IH]; intros m HI; simpl; [done|].
  destruct (step_spec m o HI) as (HI1 & Hr1 & Ha1).
  destruct (vm_step m o) as [m1 x]; destruct (spec_step (abs m) o) as [s1 y]; simpl in *.
  subst. destruct (IH m1 HI1) as (HI2 & Hr2 & Ha2).
  destruct (vm_run m1 ops) as [m2 xs]; destruct (spec_run (abs m1) ops) as [s2 ys]; simpl in *.
  by subst.
Qed.

Theorem inv_run ops : Inv (vm_run vm_init ops).1.
Proof. apply refines_run_gen, inv_init. Qed.

Theorem refines_run ops : (vm_run vm_init ops).2 = (spec_run ∅ ops).2.
Proof.
  destruct (refines_run_gen ops vm_init inv_init) as (_ & Hr & _). by rewrite abs_init in Hr.
Qed.

Theorem refines_run_state ops : abs (vm_run vm_init ops).1 = (spec_run ∅ ops).1.
Proof.
  destruct (refines_run_gen ops vm_init inv_init) as (_ & _ & Ha). by rewrite abs_init in Ha.
Qed.

(* the model never panics (never writes to a nil dirty map) *)
Corollary never_panics ops : ok (vm_run vm_init ops).1 = true.
Proof. apply inv_ok, inv_run. Qed.

Lemma abs_union m :
  Inv m →
  abs m = omap (entry_load m) (rd m) ∪
          (if amended m then omap (entry_load m) (default ∅ (dirty m)) else ∅).
Proof.
  intros HI. apply map_eq; intros k. rewrite lookup_union, lookup_omap, abs_lookup_full.
  pose proof (rd_full_load m k) as Hrd. unfold full in *. destruct (amended m).
  - rewrite lookup_omap. destruct (rd m !! k) as [e|]; simpl.
    + rewrite (Hrd e HI eq_refl). by destruct (entry_load m e).
    + by destruct (_ ≫= _).
  - rewrite lookup_empty. by destruct (_ ≫= _).
Qed.

(* Length as valuemap.go first had it — the size of the map, tombstones (deleted entries with a
   nil cell) included — is not the number of live keys. *)
Theorem length_raw_refuted :
  ∃ ops, let m := (vm_run vm_init ops).1 in vm_length_raw m ≠ size (abs m).
Proof. exists [OStore 1 1; OStore 2 2; ORange; ODelete 1]. vm_compute. discriminate. Qed.

Definition ex_ops : list vop :=
  [OStore 1 1; OStore 2 2; ORange; ODelete 1; OStore 3 3; ODelete 2].
Definition ex_state : vmap := (vm_run vm_init ex_ops).1.

Example ex_nonvacuous :
  Inv ex_state ∧
  amended ex_state = true ∧
  (∃ d, dirty ex_state = Some d ∧ map_to_list d = [(3, 2); (2, 1)]) ∧
  (rd ex_state !! 1 = Some 0 ∧ get_cell ex_state 0 = CExp) ∧
  (rd ex_state !! 2 = Some 1 ∧ get_cell ex_state 1 = CNil) ∧
  get_cell ex_state 2 = CVal 3 ∧
  map_to_list (abs ex_state) = [(3, 3)] ∧
  vm_length ex_state = 1%nat ∧ vm_length_raw ex_state = 2%nat.
Proof.
  split; [apply inv_run|].
  split; [by vm_compute|].
  split; [eexists; split; [reflexivity|by vm_compute]|].
  repeat split; by vm_compute.
Qed.

Print Assumptions abs_lookup_spec.
Print Assumptions inv_init.
Print Assumptions inv_step.
Print Assumptions refines_step.
Print Assumptions refines_run.
Print Assumptions refines_run_state.
Print Assumptions never_panics.
Print Assumptions length_raw_refuted.
Print Assumptions ex_nonvacuous.

(* C15 for dice expressions (Model/DiceExpr.v): min-mode and max-mode evaluation is pure
   (no randomness, no fuel, state-independent) and brackets every random evaluation of a
   well-formed expression (sums and non-negative multiples of XdY / Fate / CoC terms). *)
From Coq Require Import String NArith ZArith List Bool Lia.
From DS Require Import Model.PCG Model.Roll Model.Str Model.Dice Model.DiceExpr
                       Proofs.RollProofs Proofs.DiceProofs.
Import ListNotations.
Open Scope Z_scope.

Section Source.
  Variable S : Type.
  Variable next : S -> N * S.
  Hypothesis next_word : forall s, (fst (next s) < W64)%N.

  (* the value of e when every die shows its lowest (hi = false) or its highest (hi = true) face *)
  Fixpoint dval (hi : bool) (e : dexpr) : Z :=
    match e with
    | EConst c => c
    | ECommon t d mn mx k lo hi_ =>
      sum64 (repeat (clampdie mn mx (if hi then d else 1)) (Z.to_nat (pick_num t k lo hi_)))
    | EFate => if hi then 4 else -4
    | ECoC _ _ => if hi then 100 else 1
    | EAdd a b => dval hi a + dval hi b
    | EMulC c a => c * dval hi a
    end.

  Lemma deval_mode (hi : bool) e :
    wf_dexpr e -> forall fuel s, deval next fuel (if hi then 1 else -1) e s = Done (dval hi e, s).
  Proof.
    clear next_word. (* the modes never draw: the closed lemma must not ask for next_word (C15_minmax_pure) *)
    induction e as [c|t d mn mx k lo hi_| |b n|a IHa b IHb|c a IHa]; intros Hwf fuel s;
      cbn [wf_dexpr deval dval] in *.
    - reflexivity.
    - destruct Hwf as (Ht & Hd & _).
      destruct hi; [rewrite (roll_common_max S next)|rewrite (roll_common_min S next)]; (reflexivity || lia).
    - destruct hi; [rewrite (roll_fate_max S next)|rewrite (roll_fate_min S next)]; reflexivity.
    - destruct hi; [destruct (roll_coc_max S next fuel b n s) as [txt ->]
                   |destruct (roll_coc_min S next fuel b n s) as [txt ->]]; reflexivity.
    - destruct Hwf as [Ha Hb]. rewrite (IHa Ha), (IHb Hb). reflexivity.
    - destruct Hwf as [_ Ha]. rewrite (IHa Ha). reflexivity.
  Qed.

  Lemma deval_between e :
    wf_dexpr e -> forall fuel s r s', deval next fuel 0 e s = Done (r, s') ->
    dval false e <= r <= dval true e.
  Proof.
    induction e as [c|t d mn mx k lo hi_| |b n|a IHa b IHb|c a IHa]; intros Hwf fuel s r s' H;
      cbn [wf_dexpr deval dval] in *.
    - injection H as <- _. lia.
    - destruct Hwf as (Ht & Hd & Hov).
      destruct (roll_common next fuel t d mn mx k lo hi_ 0 s) as [[[num txt] s1]|] eqn:Er; [|discriminate].
      injection H as <- _.
      rewrite !(sum64_pick _ t) by nia.
      exact (proj1 (common_bracket S next next_word _ _ _ _ _ _ _ _ _ _ _ _ Ht Hd Hov Er)).
    - destruct (roll_fate next fuel 0 s) as [[[num txt] s1]|] eqn:Er; [|discriminate].
      injection H as <- _. apply (roll_fate_spec S next next_word _ _ _ _ _ _ Er).
    - destruct (roll_coc next fuel b n 0 s) as [[[num txt] s1]|] eqn:Er; [|discriminate].
      injection H as <- _.
      destruct (roll_coc_spec S next next_word _ _ _ _ _ _ _ _ Hwf Er) as (res & ds & Hres & Hlen & Hdigits & Hval & Hb & Htxt).
      exact Hb.
    - destruct Hwf as [Ha Hb].
      destruct (deval next fuel 0 a s) as [[x s1]|] eqn:Ea; [|discriminate].
      destruct (deval next fuel 0 b s1) as [[y s2]|] eqn:Eb; [|discriminate].
      injection H as <- _. pose proof (IHa Ha _ _ _ _ Ea). pose proof (IHb Hb _ _ _ _ Eb). lia.
    - destruct Hwf as [Hc Ha].
      destruct (deval next fuel 0 a s) as [[x s1]|] eqn:Ea; [|discriminate].
      injection H as <- _. pose proof (IHa Ha _ _ _ _ Ea). nia.
  Qed.

  Theorem deval_minmax_pure mode e :
    mode = -1 \/ mode = 1 -> wf_dexpr e ->
    exists v, forall fuel s, deval next fuel mode e s = Done (v, s).
  Proof.
    intros [-> | ->] Hwf.
    - exists (dval false e). exact (deval_mode false e Hwf).
    - exists (dval true e). exact (deval_mode true e Hwf).
  Qed.

  Theorem mono_expr_bracket e : forall fuel s r s',
    wf_dexpr e ->
    deval next fuel 0 e s = Done (r, s') ->
    exists lo hi,
      (forall f2 s2, deval next f2 (-1) e s2 = Done (lo, s2)) /\
      (forall f2 s2, deval next f2 1 e s2 = Done (hi, s2)) /\
      lo <= r <= hi.
  Proof.
    intros fuel s r s' Hwf H. exists (dval false e), (dval true e).
    split; [exact (deval_mode false e Hwf)|]. split; [exact (deval_mode true e Hwf)|].
    exact (deval_between e Hwf _ _ _ _ H).
  Qed.

  Corollary mono_expr_bracket_pure e fuel s r s' vmin vmax :
    wf_dexpr e ->
    deval next fuel 0 e s = Done (r, s') ->
    (forall f2 s2, deval next f2 (-1) e s2 = Done (vmin, s2)) ->
    (forall f2 s2, deval next f2 1 e s2 = Done (vmax, s2)) ->
    vmin <= r <= vmax.
  Proof.
    intros Hwf H Hmin Hmax. specialize (Hmin fuel s). specialize (Hmax fuel s).
    rewrite (deval_mode false e Hwf) in Hmin. rewrite (deval_mode true e Hwf) in Hmax.
    injection Hmin as <-. injection Hmax as <-. exact (deval_between e Hwf _ _ _ _ H).
  Qed.
End Source.

Print Assumptions deval_minmax_pure.
Print Assumptions mono_expr_bracket.
Print Assumptions mono_expr_bracket_pure.

(* non-vacuity on the real generator *)
Definition ex_expr : dexpr := EAdd (ECommon 2 6 None None 2 0 1) (EMulC 3 (ECoC false 1)).
Definition ex_state : pcg := {| hi := 1; lo := 2 |}.

Lemma ex_expr_wf : wf_dexpr ex_expr.
Proof.
  unfold ex_expr. cbn [wf_dexpr clampdie]. unfold MaxInt64, two63.
  repeat split; vm_compute; congruence.
Qed.

Example ex_expr_bracket :
  exists r s',
    deval pcg_next 64 0 ex_expr ex_state = Done (r, s') /\
    deval pcg_next 64 (-1) ex_expr ex_state = Done (4, ex_state) /\
    deval pcg_next 64 1 ex_expr ex_state = Done (306, ex_state) /\
    4 <= r <= 306 /\ s' <> ex_state.
Proof.
  eexists. eexists. split; [vm_compute; reflexivity|].
  split; [vm_compute; reflexivity|]. split; [vm_compute; reflexivity|].
  split; [split; vm_compute; congruence|]. vm_compute. congruence.
Qed.

Example ex_expr_bracket_by_theorem r s' :
  deval pcg_next 64 0 ex_expr ex_state = Done (r, s') -> 4 <= r <= 306.
Proof.
  intros H.
  apply (mono_expr_bracket_pure pcg pcg_next pcg_next_word ex_expr 64 ex_state r s' 4 306 ex_expr_wf H);
    intros f2 s2.
  - exact (deval_mode pcg pcg_next false ex_expr ex_expr_wf f2 s2).
  - exact (deval_mode pcg pcg_next true ex_expr ex_expr_wf f2 s2).
Qed.
Print Assumptions ex_expr_bracket.
Print Assumptions ex_expr_bracket_by_theorem.

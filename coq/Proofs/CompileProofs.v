(* Compiler correctness: the reference compiler (Model/Compile.v) against the validated VM model (Model/VM.v), with the
   definitional semantics (Model/Denote.v) as specification.  Here: the machines the proofs walk through and what one
   instruction does to them, on arbitrary values (the instructions that look at their operands are in
   Proofs/CompileArrays.v); the scalar fragment, closed under the definition; the per-operator rules; the statement
   about all programs and the program that refutes it (the proofs are in Proofs/CompileArrays.v). *)
From Coq Require Import String Ascii NArith ZArith List Bool Lia.
From DS Require Import Model.Str Model.PCG Model.Roll Model.Dice Model.Value Model.VM Model.Ast Model.Denote Model.Compile
                       Proofs.VMFacts Proofs.CompileFacts.
Import ListNotations.
Open Scope Z_scope.

Definition inj (v : dv) : value :=
  match v with
  | DvInt z => VInt z
  | DvStr s => VStr s
  | DvNull => VNull
  | DvArr _ => VNull          (* an array has no image: it is a reference into the heap, see `arel` in CompileArrays *)
  end.
Definition scalar (v : dv) : Prop := match v with DvArr _ => False | _ => True end.
Definition inj_env (m : denv) : vmap := map (fun kv => (fst kv, inj (snd kv))) m.
Definition scalar_env (m : denv) : Prop := Forall (fun kv => scalar (snd kv)) m.

Lemma mget_inj : forall x m, mget x (inj_env m) = option_map inj (dget x m).
Proof. unfold inj_env; induction m as [|[k v] r IH]; cbn; [reflexivity|]. destruct (String.eqb x k); [reflexivity|exact IH]. Qed.
Lemma mset_inj : forall x v m, mset x (inj v) (inj_env m) = inj_env (dset x v m).
Proof. unfold inj_env; induction m as [|[k w] r IH]; cbn; [reflexivity|]. destruct (String.eqb x k); cbn; [reflexivity|]. rewrite IH; reflexivity. Qed.
Lemma dset_scalar : forall x v m, scalar v -> scalar_env m -> scalar_env (dset x v m).
Proof.
  induction m as [|[k w] r IH]; cbn; intros Hv Hm.
  - constructor; [exact Hv|constructor].
  - inversion Hm as [|? ? H1 H2]; subst. destruct (String.eqb x k).
    + constructor; [exact Hv|exact H2].
    + constructor; [exact H1|apply IH; assumption].
Qed.
Lemma dlookup_scalar : forall x m, scalar_env m -> scalar (dlookup x m).
Proof.
  unfold dlookup; induction m as [|[k w] r IH]; cbn; intros Hm; [exact Logic.I|].
  inversion Hm; subst. destruct (String.eqb x k); auto.
Qed.

Lemma aget_aset_same : forall A k (v : A) m, aget k (aset k v m) = Some v.
Proof.
  induction m as [|[k' v'] r IH]; cbn.
  - rewrite N.eqb_refl; reflexivity.
  - destruct (k =? k')%N eqn:E; cbn; rewrite ?N.eqb_refl, ?E; auto.
Qed.
Lemma get_map_set_map : forall id m h, get_map id (set_map id m h) = m.
Proof. intros; unfold get_map, set_map; cbn. rewrite aget_aset_same; reflexivity. Qed.

(* the parts of a machine the theorems do not speak of: the stale slots above the top, lastPop, the detail spans, the op
   counter.  The inductions only carry them along (`exists j'`); a one-instruction lemma says what becomes of them where
   a later instruction reads them (`push.last`, the `block.pop` of a raise): vpop v n is a pop of v from slot n, vpush a
   push over the lowest stale slot, `counted` the tick of the counter at the loop head. *)
Record vol := { v_dead : list value; v_last : lastpop; v_details : list (Z * Z); v_ops : Z }.

Definition vpop (v : value) (n : Z) (j : vol) : vol :=
  {| v_dead := v :: v_dead j; v_last := LSlot n; v_details := v_details j; v_ops := v_ops j |}.
Definition vpush (j : vol) : vol :=
  {| v_dead := tl (v_dead j); v_last := v_last j; v_details := v_details j; v_ops := v_ops j |}.

(* simp_m: the updates of frame and world written out; pcfix: arithmetic on code lengths *)
Ltac simp_m :=
  cbv beta iota delta [mk fr_set_stack fr_set_pc fr_set_blocks fr_set_details fr_set_err fr_set_dice w_set_heap w_set_pcg jump];
  cbn [m_fr m_w fr_code fr_pc fr_live fr_dead fr_top
       fr_last fr_blocks fr_fblocks fr_dice fr_wod fr_dc fr_details fr_src fr_err w_heap w_pcg w_st w_chain tl
       v_dead v_last v_details v_ops].
Ltac pcfix := repeat rewrite ?zlen_app, ?zlen_cons, ?zlen_nil; lia.

Fixpoint core_expr (e : expr) : Prop :=
  match e with
  | EInt _ | EStr _ | ENull | ETrue | EFalse => True
  | EVar x => mem_s x builtin_names = false
  | EAssign _ e1 | EUn _ e1 => core_expr e1
  | EBin _ l r | EOr l r => core_expr l /\ core_expr r
  | ETern c a b => core_expr c /\ core_expr a /\ core_expr b
  | EArr _ | EIdx _ _ | ERoll _ _ => False
  end.

(* operand-stack slots an expression needs above the current top *)
Fixpoint need (e : expr) : Z :=
  match e with
  | EAssign _ e1 | EUn _ e1 => need e1
  | EBin _ l r => Z.max (need l) (1 + need r)
  | EOr l r => Z.max (need l) (need r)
  | ETern c a b => Z.max (need c) (Z.max (need a) (need b))
  | _ => 1
  end.
Fixpoint core_stmt (s : stmt) : Prop :=
  match s with
  | SNop => True
  | SExpr e => core_expr e
  | SSeq a b => core_stmt a /\ core_stmt b
  | SIf c t e => core_expr c /\ core_stmt t /\ core_stmt e
  | SWhile _ _ | SBreak | SContinue => False
  end.
(* operand-stack slots a statement leaves behind / needs; block-stack depth it needs *)
Fixpoint leaves (s : stmt) : Z :=
  match s with SExpr _ => 1 | SSeq a b => leaves a + leaves b | SIf _ _ _ => 2 | _ => 0 end.
Fixpoint sneed (s : stmt) : Z :=
  match s with
  | SExpr e => need e
  | SSeq a b => Z.max (sneed a) (leaves a + sneed b)
  | SIf c t e => Z.max 2 (Z.max (need c) (Z.max (sneed t) (sneed e)))
  | _ => 0
  end.
Fixpoint bneed (s : stmt) : Z :=
  match s with
  | SSeq a b => Z.max (bneed a) (bneed b)
  | SIf _ t e => 1 + Z.max (bneed t) (bneed e)
  | _ => 0
  end.
Lemma leaves_nonneg : forall s, 0 <= leaves s.
Proof. induction s; cbn [leaves]; lia. Qed.

Section Run.
  Variable E : env.
  Hypothesis Hlim : cfg_op_limit (e_cfg E) = 0.   (* no operation limit: the definition has no budget error *)
  Variable prog : code.
  Variables (dice : list dstate) (wod : wodstate) (dc : dcstate) (src : option string)
            (pcg0 : pcg) (st0 : list stcall) (attrs : N).

  Definition M (pc : Z) (live : list value) (blocks : list Z) (h : heap) (j : vol) : machine :=
    {| m_fr := {| fr_code := prog; fr_pc := pc; fr_live := live; fr_dead := v_dead j; fr_top := zlen live;
                  fr_last := v_last j; fr_blocks := blocks; fr_fblocks := []; fr_dice := dice; fr_wod := wod;
                  fr_dc := dc; fr_details := v_details j; fr_src := src; fr_err := None |};
       m_w := {| w_heap := h; w_pcg := pcg0; w_st := st0; w_chain := [{| c_attrs := attrs; c_ops := v_ops j |}] |} |}.

  (* at least one unit of fuel is left afterwards: a program always ends with `halt` *)
  Definition steps (m m' : machine) : Prop := exists n, forall fuel, exec (n + S fuel) E m = exec (S fuel) E m'.
  Lemma steps_refl : forall m, steps m m.
  Proof. intros; exists 0%nat; reflexivity. Qed.
  Lemma steps_trans : forall a b c, steps a b -> steps b c -> steps a c.
  Proof.
    intros a b c [n1 H1] [n2 H2]. exists (n1 + n2)%nat. intros fuel.
    replace (n1 + n2 + S fuel)%nat with (n1 + S (n2 + fuel))%nat by lia. rewrite H1.
    replace (S (n2 + fuel)) with (n2 + S fuel)%nat by lia. apply H2.
  Qed.

  Definition counted (j : vol) : vol :=
    {| v_dead := v_dead j; v_last := v_last j; v_details := v_details j;
       v_ops := fst (ops_add (e_cfg E) (v_ops j) 1) |}.

  Definition popped (v : value) (n : Z) (j : vol) : vol := vpop v n (counted j).

  Lemma ops_not_over : forall ops n, snd (ops_add (e_cfg E) ops n) = false.
  Proof. intros; unfold ops_add; cbn [snd]. rewrite Hlim. reflexivity. Qed.

  Definition instr_at (pc : Z) (ins : instr) : Prop := 0 <= pc /\ nth_error prog (Z.to_nat pc) = Some ins.

  (* one turn of the loop of evaluate() *)
  Lemma exec_S : forall fuel pc live blocks h j ins,
    instr_at pc ins -> zlen live < stack_size ->
    exec (S fuel) E (M pc live blocks h j) =
    match step (exec fuel E) fuel E ins (M pc live blocks h (counted j)) with
    | SNext m2 => exec fuel E {| m_fr := fr_set_pc (m_fr m2) (fr_pc (m_fr m2) + 1); m_w := m_w m2 |}
    | SStop m2 => Fin m2
    | SFail e m2 => Fail e m2
    | SPanic s => Panic s
    | SFuel => OutOfFuel
    | SUnsup s => Unsupported s
    end.
  Proof.
    intros fuel pc live blocks h j ins [Hpc Hn] Htop.
    assert (Hlt : zlen prog <=? pc = false).
    { apply Z.leb_gt. assert (Z.to_nat pc < length prog)%nat by (apply nth_error_Some; congruence). unfold zlen; lia. }
    cbn [exec]. cbn [M m_fr fr_code fr_pc]. rewrite Hlt.
    unfold count_op. cbn [M m_w w_self w_chain hd c_ops].
    destruct (ops_add (e_cfg E) (v_ops j) 1) as [ops' over] eqn:Eo.
    assert (over = false) by (pose proof (ops_not_over (v_ops j) 1) as X; rewrite Eo in X; exact X). subst over.
    cbn [fr_err fr_top]. 
    assert (Ht : (zlen live =? stack_size) = false) by (apply Z.eqb_neq; lia). rewrite Ht.
    assert (Hp : (pc <? 0) = false) by (apply Z.ltb_ge; lia). rewrite Hp. rewrite Hn.
    unfold counted. rewrite Eo. cbn [fst]. reflexivity.
  Qed.

  (* the loop of evaluate() stops at a full operand stack, before it fetches the instruction *)
  Lemma exec_full : forall fuel pc live blocks h j,
    0 <= pc < zlen prog -> zlen live = stack_size -> exists m, exec (S fuel) E (M pc live blocks h j) = Fail EStack m.
  Proof.
    intros fuel pc live blocks h j Hpc Htop.
    cbn [exec]. cbn [M m_fr fr_code fr_pc]. replace (zlen prog <=? pc) with false by (symmetry; apply Z.leb_gt; lia).
    unfold count_op. cbn [M m_w w_self w_chain hd c_ops].
    pose proof (ops_not_over (v_ops j) 1) as Ho. destruct (ops_add (e_cfg E) (v_ops j) 1) as [ops' over]. cbn [snd] in Ho. subst over.
    cbn [fr_err fr_top]. rewrite Htop, Z.eqb_refl. eexists; reflexivity.
  Qed.

  Lemma leb_size : forall x, x < stack_size -> (stack_size <=? x) = false.
  Proof. intros; apply Z.leb_gt; assumption. Qed.

  (* one_step: one turn of the loop of evaluate() at the machine in the goal (exec_S), leaving the instruction to compute;
     eq_m: two machines of this section are equal field by field, up to arithmetic *)
  Ltac one_step Hi Htop :=
    exists 1%nat; intros fuel; change (1 + S fuel)%nat with (S (S fuel));
    rewrite (exec_S (S fuel) _ _ _ _ _ _ Hi Htop).

  Ltac eq_m := unfold M, vpush, popped, vpop; simp_m; rewrite ?zlen_cons; repeat f_equal; try lia.

  Definition vars_of_m (m : machine) : vmap := get_map (c_attrs (w_self (m_w m))) (w_heap (m_w m)).
  (* Two units of fuel are left: one for the failing instruction, one more because the fuel left is the recursion fuel
     of `value_equal` inside `==`, which wants `S r` *)
  Definition fails (m : machine) (c : eclass) (vars : vmap) : Prop :=
    exists n, forall fuel, exists m', exec (n + S (S fuel)) E m = Fail c m' /\ vars_of_m m' = vars.
  Lemma steps_fails : forall a b c vars, steps a b -> fails b c vars -> fails a c vars.
  Proof.
    intros a b c vars [n1 H1] [n2 H2]. exists (n1 + n2)%nat. intros fuel.
    destruct (H2 fuel) as [m' [Hm Hv]]. exists m'. split; [|exact Hv].
    replace (n1 + n2 + S (S fuel))%nat with (n1 + S (n2 + S fuel))%nat by lia. rewrite H1.
    replace (S (n2 + S fuel)) with (n2 + S (S fuel))%nat by lia. exact Hm.
  Qed.

  Lemma step_push : forall pc live blocks h j ins v,
    (forall call f m, step call f E ins m = do_push v (m_fr m) (m_w m)) ->
    instr_at pc ins -> zlen live < 1000 ->
    exists j', steps (M pc live blocks h j) (M (pc + 1) (v :: live) blocks h j').
  Proof.
    intros pc live blocks h j ins v Hs Hi Htop.
    exists (vpush (counted j)).
    one_step Hi Htop. rewrite Hs.
    cbn [M m_fr m_w]. unfold do_push, push. cbn [fr_top].
    rewrite (leb_size _ Htop). eq_m.
  Qed.

  Lemma step_mark : forall pc live blocks h j b e,
    instr_at pc (I OpMarkDetail (OSpan b e)) -> zlen live < 1000 ->
    exists j', steps (M pc live blocks h j) (M (pc + 1) live blocks h j').
  Proof.
    intros pc live blocks h j b e Hi Htop.
    exists {| v_dead := v_dead j; v_last := v_last j; v_details := (b, e) :: v_details j; v_ops := v_ops (counted j) |}.
    one_step Hi Htop. cbn [step i_op i_arg M m_fr m_w]. eq_m.
  Qed.

  Lemma step_store : forall pc v live blocks h j x,
    instr_at pc (I OpStore (OStr x)) -> zlen (v :: live) < 1000 ->
    exists j', steps (M pc (v :: live) blocks h j)
                     (M (pc + 1) (v :: live) blocks (set_map attrs (mset x v (get_map attrs h)) h) j').
  Proof.
    intros pc v live blocks h j x Hi Htop.
    exists (counted j).
    one_step Hi Htop. cbn [step i_op i_arg M m_fr m_w arg_str fr_live].
    unfold store_name, w_set_heap, w_self. simp_m. cbn [hd c_attrs]. eq_m.
  Qed.

  Lemma value_equal_scalar : forall r fn h a b, scalar a -> scalar b ->
    value_equal (S r) fn h (inj a) (inj b) = Some (dv_eqb a b).
  Proof. intros r fn h a b Ha Hb; destruct a, b; try contradiction; reflexivity. Qed.

  (* `&&` is not in the table: OpAnd is a case of `step` of its own (step_and), not an entry of `bin_op` *)
  Lemma bin_op_spec : forall r o a b w, scalar a -> scalar b -> o <> BAnd ->
    match bin_sem (e_cfg E) o a b with
    | BV v => bin_op (S r) E (bin_opcode o) (inj a) (inj b) w = ROk (inj v) w /\ scalar v
    | BE c => bin_op (S r) E (bin_opcode o) (inj a) (inj b) w = RFail c w
    | BU _ => True
    end.
  Proof.
    intros r o a b w Ha Hb Ho.
    destruct o; try congruence;
      try (destruct a, b; try contradiction; cbn; try (split; [reflexivity|exact Logic.I]); try reflexivity; fail).
    - (* div *)
      destruct a, b; try contradiction; cbn; try reflexivity.
      destruct (z0 =? 0); [destruct (cfg_ignore_div0 (e_cfg E))|]; cbn; try (split; [reflexivity|exact Logic.I]); reflexivity.
    - (* mod *)
      destruct a, b; try contradiction; cbn; try reflexivity.
      destruct (z0 =? 0); cbn; try (split; [reflexivity|exact Logic.I]); reflexivity.
    - (* pow *)
      destruct a, b; try contradiction; cbn; try reflexivity.
      destruct (int_pow z z0); cbn; [split; [reflexivity|exact Logic.I]|exact Logic.I].
  Qed.

  Lemma step_bin_shape : forall call f o m, o <> BAnd ->
    step call f E (I (bin_opcode o) ONil) m =
    with_pop2 (m_fr m) (fun v1 v2 fr1 =>
      match bin_op f E (bin_opcode o) v1 v2 (m_w m), fr_err fr1 with
      | RFail EType w1, Some e => SFail e (mk fr1 w1)
      | r, _ => lift r fr1 (fun v w1 => do_push v fr1 w1)
      end).
  Proof. intros call f o m Ho; destruct o; try congruence; reflexivity. Qed.

  (* && : plain binary instruction, both operands already evaluated *)
  Lemma step_and : forall pc va vb live blocks h j,
    instr_at pc (I OpAnd ONil) -> zlen (vb :: va :: live) < 1000 ->
    exists j', steps (M pc (vb :: va :: live) blocks h j)
                     (M (pc + 1) ((if as_bool (e_fn E) h va then vb else va) :: live) blocks h j').
  Proof.
    intros pc va vb live blocks h j Hi Htop.
    assert (Hl : zlen live < 998) by (rewrite !zlen_cons in Htop; lia).
    exists (vpush (vpop va (zlen live) (popped vb (zlen live + 1) j))).
    one_step Hi Htop.
    cbn [step i_op i_arg M m_fr m_w with_pop2 with_pop pop fr_live]. simp_m. cbn [with_pop pop fr_live]. simp_m.
    unfold do_push, push. simp_m. rewrite !zlen_cons.
    rewrite leb_size by (unfold stack_size; lia).
    destruct (as_bool (e_fn E) h va); eq_m.
  Qed.

  Lemma step_jmp : forall pc live blocks h j off,
    instr_at pc (I OpJmp (OInt off)) -> zlen live < 1000 ->
    steps (M pc live blocks h j) (M (pc + off + 1) live blocks h (counted j)).
  Proof.
    intros pc live blocks h j off Hi Htop.
    one_step Hi Htop. cbn [step i_op i_arg M m_fr m_w arg_int]. eq_m.
  Qed.

  Lemma step_jne : forall pc v live blocks h j off,
    instr_at pc (I OpJne (OInt off)) -> zlen (v :: live) < 1000 ->
    steps (M pc (v :: live) blocks h j)
          (M (if as_bool (e_fn E) h v then pc + 1 else pc + off + 1) live blocks h (popped v (zlen live) j)).
  Proof.
    intros pc v live blocks h j off Hi Htop.
    one_step Hi Htop.
    cbn [step i_op i_arg M m_fr m_w with_pop pop fr_live arg_int]. simp_m.
    unfold popped. destruct (as_bool (e_fn E) h v); eq_m.
  Qed.

  Lemma step_jedup_true : forall pc v live blocks h j off,
    as_bool (e_fn E) h v = true ->
    instr_at pc (I OpJeDup (OInt off)) -> zlen (v :: live) < 1000 ->
    exists j', steps (M pc (v :: live) blocks h j) (M (pc + off + 1) (v :: live) blocks h j').
  Proof.
    intros pc v live blocks h j off Ht Hi Htop.
    assert (Hl : zlen live < 999) by (rewrite !zlen_cons in Htop; lia).
    exists (vpush (popped v (zlen live) j)).
    one_step Hi Htop.
    cbn [step i_op i_arg M m_fr m_w with_pop pop fr_live arg_int]. simp_m.
    rewrite Ht. unfold do_push, push. simp_m. rewrite !zlen_cons.
    rewrite leb_size by (unfold stack_size; lia).
    eq_m.
  Qed.

  Lemma step_jedup_false : forall pc v live blocks h j off,
    as_bool (e_fn E) h v = false ->
    instr_at pc (I OpJeDup (OInt off)) -> zlen (v :: live) < 1000 ->
    steps (M pc (v :: live) blocks h j) (M (pc + 1) live blocks h (popped v (zlen live) j)).
  Proof.
    intros pc v live blocks h j off Ht Hi Htop.
    one_step Hi Htop.
    cbn [step i_op i_arg M m_fr m_w with_pop pop fr_live arg_int]. simp_m.
    rewrite Ht. unfold popped. eq_m.
  Qed.

  Lemma step_pushlast : forall pc v live blocks h j,
    instr_at pc (I OpPushLast ONil) -> zlen live < 1000 ->
    exists j', steps (M pc live blocks h (popped v (zlen live) j)) (M (pc + 1) (v :: live) blocks h j').
  Proof.
    intros pc v live blocks h j Hi Htop.
    exists (vpush (counted (popped v (zlen live) j))).
    one_step Hi Htop.
    cbn [step i_op i_arg M m_fr m_w fr_last popped vpop counted v_last]. unfold read_slot. simp_m.
    pose proof (zlen_nonneg _ live) as Hnn.
    (replace (zlen live <? 0) with false by (symmetry; apply Z.ltb_ge; lia)).
    rewrite Z.ltb_irrefl, Z.sub_diag. cbn [Z.to_nat nth_error popped vpop counted v_dead].
    unfold do_push, push. simp_m. rewrite (leb_size _ Htop). cbn [popped vpop counted v_dead v_last v_details v_ops]. eq_m.
  Qed.

  Definition code_at (pc : Z) (seg : code) : Prop := exists pre post, prog = pre ++ seg ++ post /\ zlen pre = pc.
  Lemma code_at_app_l : forall pc a b, code_at pc (a ++ b) -> code_at pc a.
  Proof. intros pc a b [pre [post [H1 H2]]]. exists pre, (b ++ post). split; [|exact H2]. rewrite H1, <- app_assoc. reflexivity. Qed.
  Lemma code_at_app_r : forall pc a b, code_at pc (a ++ b) -> code_at (pc + zlen a) b.
  Proof.
    intros pc a b [pre [post [H1 H2]]]. exists (pre ++ a), post. split.
    - rewrite H1, <- !app_assoc. reflexivity.
    - rewrite zlen_app; lia.
  Qed.
  Lemma code_at_head : forall pc i r, code_at pc (i :: r) -> instr_at pc i.
  Proof.
    intros pc i r [pre [post [H1 H2]]]. subst pc. split; [apply zlen_nonneg|].
    rewrite H1. cbn [app]. apply nth_error_mid.
  Qed.
  Lemma code_at_tail : forall pc i r, code_at pc (i :: r) -> code_at (pc + 1) r.
  Proof. intros pc i r H. apply (code_at_app_r pc [i] r) in H. rewrite zlen_cons, zlen_nil in H. exact H. Qed.

  Lemma step_blockpush : forall pc live blocks h j,
    instr_at pc (I OpBlockPush ONil) -> zlen live < 1000 -> zlen blocks < 20 ->
    steps (M pc live blocks h j) (M (pc + 1) live (zlen live :: blocks) h (counted j)).
  Proof.
    intros pc live blocks h j Hi Htop Hb.
    assert (Hne : zlen live < stack_size) by (unfold stack_size; lia).
    one_step Hi Hne. cbn [step i_op i_arg M m_fr m_w fr_blocks].
    (replace (block_depth <=? zlen blocks) with false by (symmetry; apply Z.leb_gt; unfold block_depth; lia)).
    eq_m.
  Qed.

  Lemma lower_top_app : forall (a l d : list value), lower_top (length a) (a ++ l) d = (l, rev a ++ d).
  Proof.
    induction a as [|x a IH]; intros l d; cbn [length lower_top app rev]; [reflexivity|].
    rewrite IH, <- app_assoc. reflexivity.
  Qed.

  Lemma step_blockpop_lower : forall pc a live blocks h j,
    instr_at pc (I OpBlockPop ONil) -> zlen (a ++ live) < 1000 ->
    exists j', steps (M pc (a ++ live) (zlen live :: blocks) h j) (M (pc + 1) (VNull :: live) blocks h j').
  Proof.
    intros pc a live blocks h j Hi Htop.
    assert (Hne : zlen (a ++ live) < stack_size) by (unfold stack_size; lia).
    rewrite zlen_app in Htop. pose proof (zlen_nonneg _ a) as Ha. pose proof (zlen_nonneg _ live) as Hl.
    exists {| v_dead := tl (rev a ++ v_dead j); v_last := v_last j; v_details := v_details j; v_ops := v_ops (counted j) |}.
    one_step Hi Hne. cbn [step i_op i_arg M m_fr m_w fr_blocks]. unfold set_top. simp_m.
    rewrite zlen_app.
    (replace (zlen live <=? zlen a + zlen live) with true by (symmetry; apply Z.leb_le; lia)).
    replace (Z.to_nat (zlen a + zlen live - zlen live)) with (length a) by (unfold zlen; lia).
    rewrite lower_top_app. simp_m. unfold do_push, push. simp_m.
    rewrite leb_size by (unfold stack_size; lia).
    simp_m. eq_m.
  Qed.

  (* block.pop when the block left nothing: the stale slot of the popped condition comes back *)
  Lemma step_blockpop_raise : forall pc y live blocks h j,
    instr_at pc (I OpBlockPop ONil) -> zlen live < 998 ->
    v_dead j = y :: tl (v_dead j) ->
    exists j', steps (M pc live (zlen live + 1 :: blocks) h j) (M (pc + 1) (VNull :: y :: live) blocks h j').
  Proof.
    intros pc y live blocks h j Hi Htop Hd.
    assert (Hne : zlen live < stack_size) by (unfold stack_size; lia).
    exists {| v_dead := tl (tl (v_dead j)); v_last := v_last j; v_details := v_details j; v_ops := v_ops (counted j) |}.
    one_step Hi Hne. cbn [step i_op i_arg M m_fr m_w fr_blocks]. unfold set_top. simp_m.
    (replace (zlen live + 1 <=? zlen live) with false by (symmetry; apply Z.leb_gt; lia)).
    replace (Z.to_nat (zlen live + 1 - zlen live)) with 1%nat by lia.
    cbn [counted v_dead]. rewrite Hd. cbn [raise_top tl]. simp_m. unfold do_push, push. simp_m.
    rewrite leb_size by (unfold stack_size; lia).
    simp_m. eq_m.
  Qed.

End Run.

Fixpoint dloop (cfg : config) (fuel : nat) (c : expr) (b : stmt) (n : nat) (env : denv) : sres :=
  match n with
  | O => SFuelR
  | S n' =>
    match dexpr cfg c env with
    | EV vc env1 =>
      if truthy vc then
        match dstmt cfg fuel b env1 with
        | SNorm _ env2 | SCont env2 => dloop cfg fuel c b n' env2
        | SBrk env2 => SNorm (Some DvNull) env2
        | r => r
        end
      else SNorm (Some DvNull) env1
    | EE k env1 => SErrR k env1
    | EU w => SUnsupR w
    end
  end.
Lemma dstmt_while : forall cfg fuel c b env, dstmt cfg fuel (SWhile c b) env = dloop cfg fuel c b fuel env.
Proof.
  intros cfg fuel c b env. cbn [dstmt].
  match goal with |- ?f fuel env = _ => assert (H : forall n e, f n e = dloop cfg fuel c b n e) end.
  { induction n as [|n IH]; intros e; [reflexivity|]. cbn [dloop].
    destruct (dexpr cfg c e) as [v e1|k e1|w]; try reflexivity. destruct (truthy v); [|reflexivity].
    destruct (dstmt cfg fuel b e1); try reflexivity; apply IH. }
  apply H.
Qed.

Definition vars_of_state (st : vmstate) : vmap := get_map (vs_attrs st) (vs_heap st).

Lemma bin_sem_scalar : forall cfg o a b v, scalar a -> scalar b -> bin_sem cfg o a b = BV v -> scalar v.
Proof.
  intros cfg o a b v Ha Hb. destruct a, b; try contradiction; destruct o; cbn;
    repeat match goal with
           | |- context [if ?c then _ else _] => destruct c
           | |- context [match int_pow ?x ?y with _ => _ end] => destruct (int_pow x y)
           end;
    intros H; inversion H; exact Logic.I.
Qed.
Lemma un_sem_scalar : forall o a v, un_sem o a = BV v -> scalar v.
Proof. intros o [] v H; inversion H; exact Logic.I. Qed.

Definition sc_eres (r : eres) : Prop :=
  match r with EV v env => scalar v /\ scalar_env env | EE _ env => scalar_env env | EU _ => True end.
Lemma sc_lift : forall r env, scalar_env env -> (forall v, r = BV v -> scalar v) -> sc_eres (lift_b r env).
Proof. intros [v|c|w] env He Hv; cbn; auto. Qed.

Lemma dexpr_scalar : forall cfg e, core_expr e -> forall env, scalar_env env -> sc_eres (dexpr cfg e env).
Proof.
  induction e; cbn [core_expr dexpr]; intros Hc env He; try contradiction; try (cbn; auto; fail).
  - cbn. split; [apply dlookup_scalar|]; assumption.
  - specialize (IHe Hc env He). destruct (dexpr cfg e env); cbn in *; try tauto. destruct IHe. split; [|apply dset_scalar]; assumption.
  - specialize (IHe Hc env He). destruct (dexpr cfg e env) as [v env1| |]; cbn in *; try tauto. destruct IHe.
    apply sc_lift; [assumption|apply un_sem_scalar].
  - destruct Hc as [H1 H2]. specialize (IHe1 H1 env He). destruct (dexpr cfg e1 env) as [a env1| |]; cbn in *; try tauto.
    destruct IHe1 as [Ha He1].
    specialize (IHe2 H2 env1 He1). destruct (dexpr cfg e2 env1) as [b env2| |]; cbn in *; try tauto. destruct IHe2 as [Hb He2].
    apply sc_lift; [assumption|intros v; apply bin_sem_scalar; assumption].
  - destruct Hc as [H1 H2]. specialize (IHe1 H1 env He). destruct (dexpr cfg e1 env) as [a env1| |]; cbn in *; try tauto.
    destruct IHe1 as [Ha He1]. destruct (truthy a); [cbn; auto|apply IHe2; assumption].
  - destruct Hc as [H1 [H2 H3]]. specialize (IHe1 H1 env He). destruct (dexpr cfg e1 env) as [a env1| |]; cbn in *; try tauto.
    destruct IHe1 as [Ha He1]. destruct (truthy a); [apply IHe2|apply IHe3]; assumption.
Qed.

Definition sc_sres (r : sres) : Prop :=
  match r with
  | SNorm v env => match v with Some x => scalar x | None => True end /\ scalar_env env
  | SErrR _ env => scalar_env env
  | _ => True
  end.
Lemma dstmt_scalar : forall cfg fuel s, core_stmt s -> forall env, scalar_env env -> sc_sres (dstmt cfg fuel s env).
Proof.
  induction s; cbn [core_stmt dstmt]; intros Hc env He; try contradiction.
  - cbn; auto.
  - pose proof (dexpr_scalar cfg e Hc env He) as X. destruct (dexpr cfg e env); cbn in *; tauto.
  - destruct Hc as [H1 H2]. specialize (IHs1 H1 env He). destruct (dstmt cfg fuel s1 env) as [v1 env1| | | | |]; cbn in *; try tauto.
    destruct IHs1 as [Hv1 He1]. specialize (IHs2 H2 env1 He1). destruct (dstmt cfg fuel s2 env1) as [[x|] env2| | | | |]; cbn in *; tauto.
  - destruct Hc as [H0 [H1 H2]]. pose proof (dexpr_scalar cfg c H0 env He) as X. destruct (dexpr cfg c env) as [vc env1| |]; cbn in *; try tauto.
    destruct X as [_ He1]. assert (Y : sc_sres (dstmt cfg fuel (if truthy vc then s1 else s2) env1)) by (destruct (truthy vc); auto).
    destruct (dstmt cfg fuel (if truthy vc then s1 else s2) env1); cbn in *; tauto.
Qed.

Section OpSpecs.
  Variable E : env.
  Variable r : nat.
  Variable w : world.

  Lemma op_add_spec :
    (forall a b, bin_op r E OpAdd (VInt a) (VInt b) w = ROk (VInt (wrap64 (a + b))) w) /\
    (forall a b, bin_op r E OpAdd (VStr a) (VStr b) w = ROk (VStr (a ++ b)) w) /\
    (forall a b, bin_op r E OpAdd (VInt a) (VStr b) w = RFail EType w) /\
    (forall a b, bin_op r E OpAdd (VStr a) (VInt b) w = RFail EType w).
  Proof. repeat split; reflexivity. Qed.

  Lemma op_div_spec : forall a b,
    bin_op r E OpDiv (VInt a) (VInt b) w =
    if b =? 0 then (if cfg_ignore_div0 (e_cfg E) then ROk (VInt a) w else RFail EDiv0 w)
    else ROk (VInt (wrap64 (Z.quot a b))) w.
  Proof. intros; cbn. destruct (b =? 0); reflexivity. Qed.

  Definition is_int (v : value) : bool := match v with VInt _ => true | _ => false end.
  Lemma compare_spec :
    (forall a b, bin_op r E OpLt (VInt a) (VInt b) w = ROk (vbool (a <? b)) w) /\
    (forall a b, bin_op r E OpLe (VInt a) (VInt b) w = ROk (vbool (a <=? b)) w) /\
    (forall a b, bin_op r E OpGe (VInt a) (VInt b) w = ROk (vbool (b <=? a)) w) /\
    (forall a b, bin_op r E OpGt (VInt a) (VInt b) w = ROk (vbool (b <? a)) w) /\
    (forall op v1 v2, In op [OpLt; OpLe; OpGe; OpGt] -> is_int v1 && is_int v2 = false -> bin_op r E op v1 v2 w = RFail EType w).
  Proof.
    repeat split; try reflexivity.
    intros op v1 v2 Hop Hty. cbn [In] in Hop.
    destruct Hop as [<-|[<-|[<-|[<-|[]]]]]; destruct v1, v2; cbn in *; try discriminate; reflexivity.
  Qed.

  Lemma truthy_spec : forall fn h,
    (forall z, as_bool fn h (VInt z) = negb (z =? 0)) /\
    (forall s, as_bool fn h (VStr s) = negb (String.eqb s "")) /\
    as_bool fn h VNull = false /\
    (forall id, as_bool fn h (VArr id) = negb (Nat.eqb (length (get_arr id h)) 0)).
  Proof. intros; repeat split; try reflexivity. intros id; cbn. destruct (get_arr id h); reflexivity. Qed.
End OpSpecs.

Inductive vrel (h : heap) : dv -> value -> Prop :=
| vr_int : forall z, vrel h (DvInt z) (VInt z)
| vr_str : forall s, vrel h (DvStr s) (VStr s)
| vr_null : vrel h DvNull VNull
| vr_arr : forall l id, Forall2 (vrel h) l (get_arr id h) -> vrel h (DvArr l) (VArr id).
Definition env_rel (h : heap) (env : denv) (m : vmap) : Prop :=
  forall x, match dget x env, mget x m with
            | Some a, Some b => vrel h a b
            | None, None => True
            | _, _ => False
            end.

(* static well-formedness: break / continue inside loops only, no variable named like a builtin function, a bound on the
   size (400 nodes: each node needs at most two operand-stack slots, and 1000 are there) and on the nesting (19 = block_depth - 1) *)
Fixpoint e_names_ok (e : expr) : bool :=
  match e with
  | EVar x => negb (mem_s x builtin_names)
  | EAssign _ a | EUn _ a => e_names_ok a
  | EBin _ a b | EOr a b | EIdx a b | ERoll a b => e_names_ok a && e_names_ok b
  | ETern a b c => e_names_ok a && e_names_ok b && e_names_ok c
  | EArr l => (fix go (l : list expr) : bool := match l with [] => true | x :: r => e_names_ok x && go r end) l
  | _ => true
  end.
Fixpoint s_names_ok (s : stmt) : bool :=
  match s with
  | SExpr e => e_names_ok e
  | SSeq a b => s_names_ok a && s_names_ok b
  | SIf c t e => e_names_ok c && s_names_ok t && s_names_ok e
  | SWhile c b => e_names_ok c && s_names_ok b
  | _ => true
  end.
Fixpoint e_nodes (e : expr) : Z :=
  match e with
  | EAssign _ a | EUn _ a => 1 + e_nodes a
  | EBin _ a b | EOr a b | EIdx a b | ERoll a b => 1 + e_nodes a + e_nodes b
  | ETern a b c => 1 + e_nodes a + e_nodes b + e_nodes c
  | EArr l => 1 + (fix go (l : list expr) : Z := match l with [] => 0 | x :: r => e_nodes x + go r end) l
  | _ => 1
  end.
Fixpoint s_nodes (s : stmt) : Z :=
  match s with
  | SExpr e => e_nodes e
  | SSeq a b => s_nodes a + s_nodes b
  | SIf c t e => 1 + e_nodes c + s_nodes t + s_nodes e
  | SWhile c b => 1 + e_nodes c + s_nodes b
  | _ => 1
  end.
Fixpoint s_nest (s : stmt) : Z :=
  match s with
  | SSeq a b => Z.max (s_nest a) (s_nest b)
  | SIf _ t e => 1 + Z.max (s_nest t) (s_nest e)
  | SWhile _ b => 1 + s_nest b
  | _ => 0
  end.
Definition wf_prog (p : stmt) : bool :=
  loops_ok false p && s_names_ok p && (s_nodes p <=? 400) && (s_nest p <=? 19).

(* The statement one would like, refuted below. *)
Definition compile_correct_statement : Prop :=
  forall p cfg ftab fuel env src st,
    wf_prog p = true -> cfg_op_limit cfg = 0 -> env_rel (vs_heap st) env (vars_of_state st) ->
    match denote fuel cfg p env with
    | DVal v env' =>
      (exists fuel' st' v', run fuel' {| e_ftab := ftab; e_cfg := cfg |} (compile p) src st = Val v' st'
                            /\ vrel (vs_heap st') v v' /\ env_rel (vs_heap st') env' (vars_of_state st'))
      /\ (forall fuel', match run fuel' {| e_ftab := ftab; e_cfg := cfg |} (compile p) src st with
                        | Val _ _ | OOutOfFuel => True
                        | _ => False
                        end)
    | DErr c env' =>
      exists fuel' st', run fuel' {| e_ftab := ftab; e_cfg := cfg |} (compile p) src st = Err c st'
                        /\ env_rel (vs_heap st') env' (vars_of_state st')
    | _ => True
    end.

(* the recorded defect while-body-stack-leak refutes it: `i=0; while i<2000 {i=i+1}; i` *)
Definition leak_witness : stmt :=
  SSeq (SExpr (EAssign "i" (EInt 0)))
       (SSeq (SWhile (EBin BLt (EVar "i") (EInt 2000)) (SExpr (EAssign "i" (EBin BAdd (EVar "i") (EInt 1)))))
             (SExpr (EVar "i"))).
Definition cfg0 : config :=
  {| cfg_ignore_div0 := false; cfg_min_mode := false; cfg_max_mode := false; cfg_op_limit := 0;
     cfg_def_expr_empty := true; cfg_st_callback := false |}.

Definition example_prog : stmt :=
  SSeq (SExpr (EAssign "x" (EInt 0)))
  (SSeq (SExpr (EAssign "i" (EInt 0)))
  (SSeq (SWhile (EBin BLt (EVar "i") (EInt 10))
          (SSeq (SExpr (EAssign "i" (EBin BAdd (EVar "i") (EInt 1))))
          (SSeq (SIf (EBin BEq (EBin BMod (EVar "i") (EInt 2)) (EInt 0)) SContinue SNop)
          (SSeq (SIf (EBin BGt (EVar "i") (EInt 7)) SBreak SNop)
                (SExpr (EAssign "x" (EBin BAdd (EVar "x") (EVar "i"))))))))
        (SExpr (EOr (EBin BAnd (EVar "x") (EStr "")) (ETern (EVar "x") (EBin BMul (EVar "x") (EInt 2)) ENull))))).

Example example_loop_agrees :
  denote 100 cfg0 example_prog [] = DVal (DvInt 32) [("x"%string, DvInt 16); ("i"%string, DvInt 9)]
  /\ exists st', run 2000 {| e_ftab := []; e_cfg := cfg0 |} (compile example_prog) "" (init_vmstate {| hi := 1; lo := 2 |}) = Val (VInt 32) st'
                 /\ vars_of_state st' = inj_env [("x"%string, DvInt 16); ("i"%string, DvInt 9)].
Proof. split; [vm_compute; reflexivity|]. eexists. split; vm_compute; reflexivity. Qed.

(* compile_correct_core (Proofs/CompileArrays.v) is not vacuous: a loop-free program satisfies its hypotheses and evaluates to a value *)
Definition example_core : stmt :=
  SSeq (SExpr (EAssign "x" (EBin BSub (EInt 3) (EInt 5))))
       (SSeq (SIf (EBin BLt (EVar "x") (EInt 0)) (SExpr (EAssign "y" (EUn UNeg (EVar "x")))) (SExpr (EAssign "y" (EVar "x"))))
             (SExpr (EOr (EBin BAnd (EVar "y") ENull) (ETern (EVar "y") (EBin BAdd (EStr "a") (EStr "b")) (EInt 1))))).
Example example_core_ok :
  core_stmt example_core /\ sneed example_core <= 999 /\ bneed example_core <= 20 /\
  denote 0 cfg0 example_core [] = DVal (DvStr "ab") [("x"%string, DvInt (-2)); ("y"%string, DvInt 2)].
Proof. repeat split; vm_compute; try reflexivity; discriminate. Qed.
Example example_core_error :
  denote 0 cfg0 (SSeq (SExpr (EAssign "x" (EInt 1))) (SExpr (EBin BDiv (EVar "x") (EBin BSub (EVar "x") (EVar "x"))))) []
  = DErr EDiv0 [("x"%string, DvInt 1)].
Proof. vm_compute. reflexivity. Qed.

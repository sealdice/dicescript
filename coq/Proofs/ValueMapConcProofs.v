(* Linearizability of the interleaving model of valuemap.go (Model/ValueMapConc.v):
   every schedule of every finite set of threads produces a linearizable history. *)
From stdpp Require Import gmap.
From Coq Require Import NArith Lia.
From DS Require Import Model.ValueMap Model.ValueMapConc Proofs.ValueMapConcLin
  Proofs.ValueMapConcInv Proofs.ValueMapConcPrims.

Local Open Scope N_scope.

(* the final `else` of Store / LoadOrStore allocates the entry of its key *)
Definition ek_step (s : shared) (p : pc) (ek : eid -> key) : eid -> key :=
  match p with
  | PStoreLocked k _ | PLosLocked k _ =>
    match s_rd s !! k, dget s k with
    | None, None => fun x => if N.eqb x (s_nexte s) then k else ek x
    | _, _ => ek
    end
  | _ => ek
  end.

(* the entry that LoadAndDelete removes from the dirty map becomes the deleting thread's *)
Definition own_step (t : nat) (s : shared) (p : pc) (own : eid -> option nat) : eid -> option nat :=
  match p with
  | PDelLocked k =>
    match s_rd s !! k with
    | None => if s_am s then own_upd own (dget s k) t else own
    | Some _ => own
    end
  | _ => own
  end.

(* g_ek and g_own are computed from the stepping thread's program point and the shared state
   alone: a thread parked beside the others (ValueMapScanProofs) does not change them *)
Definition gstep (c : conf) (t : nat) (g : ghost) : ghost :=
  let p := match c_thr c !! t with Some ts => t_pc ts | None => PIdle end in
  {| g_l := lg_step (g_l g) t (snd (cstep_ann c t));
     g_ek := ek_step (c_sh c) p (g_ek g);
     g_own := own_step t (c_sh c) p (g_own g) |}.

Definition g_init : ghost :=
  {| g_l := {| g_abs := ∅; g_th := ∅ |}; g_ek := fun _ => 0; g_own := fun _ => None |}.

Definition step_ok (c : conf) (g : ghost) (t : nat) : Prop :=
  lg_ok (g_l g) t (snd (cstep_ann c t)) /\ Inv (cstep c t) (gstep c t g) /\
  forall t', t' <> t -> s_lock (c_sh (cstep c t)) = Some t' <-> s_lock (c_sh c) = Some t'.

Lemma ghost_eta g : {| g_l := g_l g; g_ek := g_ek g; g_own := g_own g |} = g.
Proof. by destruct g. Qed.

Lemma lin_facts g t o seen :
  status g t = Some (GInv o seen) ->
  g_abs (lg_step (g_l g) t ALin) = fst (spec_step (g_abs (g_l g)) (vop_of o)) /\
  forall ek own, status {| g_l := lg_step (g_l g) t ALin; g_ek := ek; g_own := own |} t
                 = Some (GLin (snd (spec_step (g_abs (g_l g)) (vop_of o)))).
Proof.
  unfold status. intros Hs. simpl. rewrite Hs.
  destruct (spec_step (g_abs (g_l g)) (vop_of o)). split; [done|]. intros. apply lookup_insert.
Qed.

Lemma linpast_facts g t o seen r :
  status g t = Some (GInv o seen) ->
  (exists σ, σ ∈ seen /\ spec_step σ (vop_of o) = (σ, r)) ->
  lg_ok (g_l g) t (ALinPast r) /\
  g_abs (lg_step (g_l g) t (ALinPast r)) = g_abs (g_l g) /\
  forall ek own, status {| g_l := lg_step (g_l g) t (ALinPast r); g_ek := ek; g_own := own |} t
                 = Some (GLin r).
Proof.
  unfold status. intros Hs Hex. simpl. rewrite Hs. split; [|split; [done|]].
  - by intros o' seen' [= <- <-].
  - intros. apply lookup_insert.
Qed.

Lemma lad_none (σ : spec) k : σ !! k = None -> spec_step σ (OLoadAndDelete k) = (σ, ROpt None).
Proof. intros H. unfold spec_step. rewrite H. f_equal. by apply delete_notin. Qed.
Lemma los_present (σ : spec) k v x :
  σ !! k = Some x -> spec_step σ (OLoadOrStore k v) = (σ, ROptB (Some x) true).
Proof. intros H. unfold spec_step. by rewrite H. Qed.
Lemma los_absent (σ : spec) k v :
  σ !! k = None -> spec_step σ (OLoadOrStore k v) = (<[k:=v]> σ, ROptB (Some v) false).
Proof. intros H. unfold spec_step. by rewrite H. Qed.

(* tryLoadOrStore under the lock, on the current non-expunged entry of k *)
Lemma los_entry_step t s thr g k v e seen :
  OInv t s thr g -> current s k e -> s_cell s e <> KExp ->
  status g t = Some (GInv (CLoadOrStore k v) seen) ->
  let s' := fst (los_locked_entry s e v) in
  let r := snd (los_locked_entry s e v) in
  let g' := {| g_l := lg_step (g_l g) t ALin; g_ek := g_ek g; g_own := g_own g |} in
  OInv t s' thr g' /\ status g' t = Some (GLin r) /\ s_am s' = s_am s /\ s_lock s' = s_lock s.
Proof.
  intros Ho Hcur Hne Hst. pose proof (o_wf _ _ _ _ Ho) as Hwf.
  destruct (lin_facts g t (CLoadOrStore k v) seen Hst) as (H1 & H2).
  assert (g_abs (g_l g) !! k = kload (s_cell s e)) as Habs.
  { rewrite (o_abs _ _ _ _ Ho). by eapply abs_lookup_current. }
  simpl vop_of in H1, H2. cbv zeta. unfold los_locked_entry.
  destruct (s_cell s e) as [| |p x] eqn:Hc; [|done|]; simpl fst; simpl snd.
  - rewrite (los_absent _ _ _ Habs) in H1, H2. split; [|split; [apply H2|done]].
    eapply (OInv_write t s _ thr g k e (KVal (s_nextp s) v)) with (a := ALin); try done. congruence.
  - rewrite (los_present _ _ _ _ Habs) in H1, H2. split; [|split; [apply H2|done]].
    eapply (OInv_same_core t s thr g s _ ALin); try done.
Qed.

Section step.
  Context (t : nat) (s : shared) (thr : gmap nat tstate) (g : ghost).
  Hypothesis Ho : OInv t s thr g.
  Let Hwf := o_wf _ _ _ _ Ho.
  Let Habs := o_abs _ _ _ _ Ho.

  Definition pc_pre (p : pc) : Prop :=
    TI s g t p /\ (holds_lock p = true <-> s_lock s = Some t).

  Definition lock_ok (p' : pc) (s' : shared) : Prop :=
    (holds_lock p' = true <-> s_lock s' = Some t) /\
    forall t', t' <> t -> s_lock s' = Some t' <-> s_lock s = Some t'.

  Definition pc_post (s' : shared) (p' : pc) (a : ann)
                  (ek' : eid -> key) (own' : eid -> option nat) : Prop :=
    let g' := {| g_l := lg_step (g_l g) t a; g_ek := ek'; g_own := own' |} in
    lg_ok (g_l g) t a /\ OInv t s' thr g' /\ TI s' g' t p' /\ lock_ok p' s'.

  Lemma lock_same p p' s' :
    pc_pre p -> holds_lock p' = holds_lock p -> s_lock s' = s_lock s -> lock_ok p' s'.
  Proof. intros [_ Hlk] Hh Hs. split; [by rewrite Hh, Hs|]. intros t' _. by rewrite Hs. Qed.

  Definition pc_ok (p : pc) : Prop :=
    let '(s', p', a) := sstep t s p in
    pc_post s' p' a (ek_step s p (g_ek g)) (own_step t s p (g_own g)).

  Lemma post_tau_to s' p' :
    OInv t s' thr g -> TI s' g t p' -> lock_ok p' s' -> pc_post s' p' ATau (g_ek g) (g_own g).
  Proof. intros. unfold pc_post. simpl. by rewrite ghost_eta. Qed.

  Lemma post_tau p p' :
    pc_pre p -> holds_lock p' = holds_lock p -> TI s g t p' -> pc_post s p' ATau (g_ek g) (g_own g).
  Proof. intros Hp Hh Hti. apply post_tau_to; [done..|by apply (lock_same p)]. Qed.

  Lemma post_stay p p' a :
    pc_pre p -> holds_lock p' = holds_lock p -> lg_ok (g_l g) t a ->
    g_abs (lg_step (g_l g) t a) = g_abs (g_l g) ->
    TI s {| g_l := lg_step (g_l g) t a; g_ek := g_ek g; g_own := g_own g |} t p' ->
    pc_post s p' a (g_ek g) (g_own g).
  Proof.
    intros Hp Hh Hok Ha Hti. split; [done|]. split; [|split; [done|by apply (lock_same p)]].
    eapply OInv_same_core; eauto. by repeat split.
  Qed.

  Lemma post_linpast p p' o seen r :
    pc_pre p -> status g t = Some (GInv o seen) -> holds_lock p' = holds_lock p ->
    (exists σ, σ ∈ seen /\ spec_step σ (vop_of o) = (σ, r)) ->
    (forall g', status g' t = Some (GLin r) -> TI s g' t p') ->
    pc_post s p' (ALinPast r) (g_ek g) (g_own g).
  Proof.
    intros Hp Hst Hh Hex Hti. destruct (linpast_facts g t o seen r Hst Hex) as (H1 & H2 & H3).
    apply (post_stay p); try done. apply Hti, H3.
  Qed.

  Lemma seen_now o seen r :
    status g t = Some (GInv o seen) ->
    spec_step (g_abs (g_l g)) (vop_of o) = (g_abs (g_l g), r) ->
    exists σ, σ ∈ seen /\ spec_step σ (vop_of o) = (σ, r).
  Proof. intros Hst Hsp. exists (g_abs (g_l g)). split; [by eapply (o_cur _ _ _ _ Ho)|done]. Qed.

  Lemma SN_read o seen k e :
    status g t = Some (GInv o seen) -> SN s seen k e -> seenk seen k (kload (s_cell s e)).
  Proof.
    intros Hst [Hc|[H1 _]]; [|done]. exists (g_abs (g_l g)).
    split; [by eapply (o_cur _ _ _ _ Ho)|]. rewrite Habs. by eapply abs_lookup_current.
  Qed.

  Lemma read_hit k e seen :
    s_rd s !! k = Some e -> held s (g_ek g) k e /\ ever s e /\ SN s seen k e.
  Proof. intros Hr. split; [by eapply w_rd|]. split; [left; by exists k|]. left. by left. Qed.

  Lemma ok_try_lock p next :
    pc_pre p -> holds_lock p = false -> holds_lock next = true ->
    (forall s1, TI s g t p -> TI s1 g t next) ->
    let '(s', p', a) := try_lock t s p next in pc_post s' p' a (g_ek g) (g_own g).
  Proof.
    intros Hp Hh Hh' Hnext. unfold try_lock. destruct (s_lock s) as [t0|] eqn:Hl.
    { apply (post_tau p); try done. apply Hp. }
    assert (lock_ok next (set_lock s (Some t))) as Hlk'.
    { split; simpl; [by rewrite Hh'|]. intros t' Hne. rewrite Hl. split; congruence. }
    apply post_tau_to; [|apply Hnext, Hp|done].
    eapply (OInv_same_core t s thr g _ g ATau); eauto; [by repeat split|apply Hlk'].
  Qed.

  Lemma ok_unlock next : pc_pre (PUnlock next) -> pc_ok (PUnlock next).
  Proof.
    intros [Hti [Hlk _]]. specialize (Hlk eq_refl).
    assert (lock_ok next (set_lock s None)) as Hlk'.
    { split; simpl; [simpl in Hti; by destruct next|]. intros t' Hne. rewrite Hlk. split; congruence. }
    apply post_tau_to; [|simpl in Hti; by destruct next|done].
    eapply (OInv_same_core t s thr g _ g ATau); eauto; [by repeat split|apply Hlk'].
  Qed.

  Lemma ok_load0 k : pc_pre (PLoad0 k) -> pc_ok (PLoad0 k).
  Proof.
    intros Hp. pose proof Hp as [(seen & Hst) _]. unfold pc_ok. simpl.
    destruct (s_rd s !! k) as [e|] eqn:Hr; [|destruct (s_am s) eqn:Ham].
    - apply (post_tau _ _ Hp); [done|]. destruct (read_hit _ _ seen Hr) as (? & ? & ?). by exists seen.
    - apply (post_tau _ _ Hp); [done|]. by exists seen.
    - apply (post_linpast _ _ _ _ _ Hp Hst); [done| |done]. apply (seen_now _ _ _ Hst).
      simpl. rewrite Habs. unfold abs_lookup. by rewrite Hr, Ham.
  Qed.

  Lemma ok_loadE k e : pc_pre (PLoadE k e) -> pc_ok (PLoadE k e).
  Proof.
    intros Hp. pose proof Hp as [(seen & Hst & Hh & Hsn) _].
    apply (post_linpast _ _ _ _ _ Hp Hst); [done| |done].
    destruct (SN_read _ _ _ _ Hst Hsn) as (σ & Hin & Hl). exists σ. split; [done|].
    simpl. by rewrite Hl.
  Qed.

  Lemma ok_loadLocked k : pc_pre (PLoadLocked k) -> pc_ok (PLoadLocked k).
  Proof.
    intros Hp. pose proof Hp as [(seen & Hst) [Hlk _]]. specialize (Hlk eq_refl).
    unfold pc_ok. simpl.
    destruct (s_rd s !! k) as [e|] eqn:Hr; [|destruct (s_am s) eqn:Ham].
    - apply (post_tau _ _ Hp); [done|]. destruct (read_hit _ _ seen Hr) as (? & ? & ?). by exists seen.
    - destruct (miss_locked_fields s) as (M1 & M2 & M3). destruct (dget s k) as [e|] eqn:Hd.
      + apply post_tau_to; [by apply OInv_miss_locked| |by apply (lock_same _ _ _ Hp)].
        destruct (dget_current _ _ _ _ _ Hwf Hr Hd) as [Hc Hne].
        destruct (current_held _ _ _ _ _ Hwf Hc) as [Hk Hlt].
        exists seen. split; [done|]. split; [split; [done|by rewrite M1]|]. left.
        by eapply miss_locked_current.
      + destruct (linpast_facts g t (CLoad k) seen (ROpt None) Hst) as (H1 & H2 & H3).
        { apply (seen_now _ _ _ Hst). simpl. rewrite Habs. unfold abs_lookup. by rewrite Hr, Ham, Hd. }
        split; [done|]. split; [|split; [apply H3|by apply (lock_same _ _ _ Hp)]].
        apply OInv_miss_locked; [|done]. eapply OInv_same_core; eauto. by repeat split.
    - apply (post_linpast _ _ _ _ _ Hp Hst); [done| |done]. apply (seen_now _ _ _ Hst).
      simpl. rewrite Habs. unfold abs_lookup. by rewrite Hr, Ham.
  Qed.

  Lemma ok_store0 k v : pc_pre (PStore0 k v) -> pc_ok (PStore0 k v).
  Proof.
    intros Hp. pose proof Hp as [(seen & Hst) _]. unfold pc_ok. simpl.
    destruct (s_rd s !! k) as [e|] eqn:Hr; apply (post_tau _ _ Hp); try done; [|by exists seen].
    destruct (read_hit _ _ seen Hr) as (? & ? & ?). by exists seen.
  Qed.

  Lemma ok_storeTry k v e : pc_pre (PStoreTry k v e) -> pc_ok (PStoreTry k v e).
  Proof.
    intros Hp. pose proof Hp as [(seen & Hst & Hh & Hev) _]. unfold pc_ok. simpl.
    destruct (s_cell s e) eqn:Hc; apply (post_tau _ _ Hp); try done; by exists seen.
  Qed.

  Lemma ok_storeCas k v e c0 : pc_pre (PStoreCas k v e c0) -> pc_ok (PStoreCas k v e c0).
  Proof.
    intros Hp. pose proof Hp as [(seen & Hst & Hh & Hev & Hc0) Hlk]. unfold pc_ok. simpl.
    destruct (decide (s_cell s e = c0)) as [Hc|Hc].
    - rewrite bool_decide_true by done. destruct (lin_facts g t _ seen Hst) as (H1 & H2).
      split; [done|]. split; [|split; [apply H2|by apply (lock_same _ _ _ Hp)]].
      eapply (OInv_write t s _ thr g k e (KVal (s_nextp s) v)) with (a := ALin); try done.
      + left. eapply ever_rd; eauto. congruence.
      + congruence.
    - rewrite bool_decide_false by done. apply (post_tau _ _ Hp); [done|]. by exists seen.
  Qed.

  (* the final `else` of Store / LoadOrStore: key in neither map *)
  Lemma new_key_step p k v o seen r :
    pc_pre p -> holds_lock p = true -> status g t = Some (GInv o seen) ->
    s_rd s !! k = None -> dget s k = None ->
    spec_step (g_abs (g_l g)) (vop_of o) = (<[k := v]> (g_abs (g_l g)), r) ->
    pc_post (add_new s k v) (PUnlock (PRet r)) ALin
         (fun x => if N.eqb x (s_nexte s) then k else g_ek g x) (g_own g).
  Proof.
    intros Hp Hh Hst Hr Hd Hsp. destruct (lin_facts g t o seen Hst) as (H1 & H2).
    rewrite Hsp in H1, H2. split; [done|].
    split; [|split; [apply H2|apply (lock_same _ _ _ Hp); [done|apply add_new_lock]]].
    by eapply (OInv_add_new t s thr g _ ALin k v).
  Qed.

  Lemma ok_storeLocked k v : pc_pre (PStoreLocked k v) -> pc_ok (PStoreLocked k v).
  Proof.
    intros Hp. pose proof Hp as [(seen & Hst) _].
    destruct (lin_facts g t _ seen Hst) as (H1 & H2). unfold pc_ok. simpl.
    destruct (s_rd s !! k) as [e|] eqn:Hr; [|destruct (dget s k) as [e|] eqn:Hd].
    - destruct (unexpunge_fields s k e) as (U1 & U2 & U3 & U4 & U5).
      split; [done|]. split; [|split; [apply H2|by apply (lock_same _ _ _ Hp)]].
      eapply (OInv_write t (unexpunge s k e) _ thr g k e
                (KVal (s_nextp (unexpunge s k e)) v)) with (a := ALin); try done.
      + by apply OInv_unexpunge.
      + left. by rewrite U1.
    - destruct (dget_current _ _ _ _ _ Hwf Hr Hd) as [Hcur Hne].
      split; [done|]. split; [|split; [apply H2|by apply (lock_same _ _ _ Hp)]].
      eapply (OInv_write t s _ thr g k e (KVal (s_nextp s) v)) with (a := ALin); try done.
    - by apply (new_key_step _ k v _ seen _ Hp eq_refl Hst).
  Qed.

  Lemma ok_del0 k : pc_pre (PDel0 k) -> pc_ok (PDel0 k).
  Proof.
    intros Hp. pose proof Hp as [(seen & Hst) _]. unfold pc_ok. simpl.
    destruct (s_rd s !! k) as [e|] eqn:Hr; [|destruct (s_am s) eqn:Ham].
    - apply (post_tau _ _ Hp); [done|]. destruct (read_hit _ _ seen Hr) as (? & ? & ?).
      split; [done|]. left. by exists seen.
    - apply (post_tau _ _ Hp); [done|]. by exists seen.
    - apply (post_linpast _ _ _ _ _ Hp Hst); [done| |done]. apply (seen_now _ _ _ Hst), lad_none.
      rewrite Habs. unfold abs_lookup. by rewrite Hr, Ham.
  Qed.

  Lemma ok_delE k e : pc_pre (PDelE k e) -> pc_ok (PDelE k e).
  Proof.
    intros Hp. pose proof Hp as [(Hh & Hcase) _]. unfold pc_ok. simpl.
    assert (kload (s_cell s e) = None ->
            pc_post s (PRet (ROpt None)) (ALinPast (ROpt None)) (g_ek g) (g_own g)) as Hnone.
    { intros Hkl. destruct Hcase as [(seen & Hst & Hev & Hsn)|[Hst Hown]].
      - apply (post_linpast _ _ _ _ _ Hp Hst); [done| |done].
        destruct (SN_read _ _ _ _ Hst Hsn) as (σ & Hin & Hl). exists σ. split; [done|].
        apply lad_none. by rewrite Hl.
      - (* the operation took effect when its entry left the dirty map *)
        rewrite Hkl in Hst. unfold status in Hst.
        apply (post_stay _ _ _ Hp); simpl; rewrite ?Hst; done. }
    destruct (s_cell s e) as [| |p x] eqn:Hc; [by apply Hnone..|].
    apply (post_tau _ _ Hp); [done|]. split; [done|]. split; [done|].
    destruct Hcase as [?|[? ?]]; [by left|right; by rewrite Hc].
  Qed.

  Lemma ok_delCas k e c0 : pc_pre (PDelCas k e c0) -> pc_ok (PDelCas k e c0).
  Proof.
    intros Hp. pose proof Hp as [(Hh & Hv & Hcase) Hlk]. unfold pc_ok. simpl.
    destruct (decide (s_cell s e = c0)) as [Hc|Hc].
    - rewrite bool_decide_true by done.
      assert (s_cell s e <> KExp) as Hne by (rewrite Hc; by destruct c0).
      destruct Hcase as [(seen & Hst & Hev & Hsn)|(Hst & Hown & _)].
      + destruct (lin_facts g t _ seen Hst) as (H1 & H2).
        assert (s_rd s !! k = Some e) as Hr by (eapply ever_rd; eauto).
        split; [done|]. split; [|split; [|by apply (lock_same _ _ _ Hp)]].
        * eapply (OInv_write t s _ thr g k e KNil) with (a := ALin); try done. by left.
        * simpl. rewrite H2. simpl. rewrite Habs. unfold abs_lookup. by rewrite Hr, Hc.
      + (* the orphaned entry is cleared by its owner; no effect on the abstract map *)
        unfold status in Hst. split; [done|]. split; [|split; [|by apply (lock_same _ _ _ Hp)]].
        * eapply (OInv_write_owned t s thr g _ ALin e); try done. simpl. by rewrite Hst.
        * simpl. unfold status. simpl. by rewrite Hst, <-Hc.
    - rewrite bool_decide_false by done. apply (post_tau _ _ Hp); [done|]. split; [done|].
      destruct Hcase as [?|(? & ? & ?)]; [by left|]. right. by subst.
  Qed.

  Lemma ok_delLocked k : pc_pre (PDelLocked k) -> pc_ok (PDelLocked k).
  Proof.
    intros Hp. pose proof Hp as [(seen & Hst) [Hlk _]]. specialize (Hlk eq_refl).
    unfold pc_ok. simpl.
    destruct (s_rd s !! k) as [e|] eqn:Hr; [|destruct (s_am s) eqn:Ham].
    - apply (post_tau _ _ Hp); [done|]. destruct (read_hit _ _ seen Hr) as (? & ? & ?).
      split; [done|]. left. by exists seen.
    - destruct (lin_facts g t _ seen Hst) as (H1 & H2).
      set (s1 := set_dirty s (delete k <$> s_dirty s)).
      destruct (miss_locked_fields s1) as (M1 & M2 & M3).
      assert (forall oe p', dget s k = oe ->
                TI (miss_locked s1) {| g_l := lg_step (g_l g) t ALin; g_ek := g_ek g;
                                       g_own := own_upd (g_own g) oe t |} t p' ->
                holds_lock p' = true ->
                pc_post (miss_locked s1) p' ALin (g_ek g) (own_upd (g_own g) oe t)) as Hpost.
      { intros oe p' Hoe Hti Hh. split; [done|]. split; [|split; [done|by apply (lock_same _ _ _ Hp)]].
        apply OInv_miss_locked; [|done].
        eapply (OInv_dirty_delete t s thr g _ ALin k); try done. simpl. by rewrite Hoe. }
      assert (forall own', status {| g_l := lg_step (g_l g) t ALin; g_ek := g_ek g; g_own := own' |} t
                = Some (GLin (ROpt (match dget s k with Some e => kload (s_cell s e) | None => None end))))
        as Hst'.
      { intros. rewrite H2. simpl. rewrite Habs. unfold abs_lookup. by rewrite Hr, Ham. }
      destruct (dget s k) as [e|] eqn:Hd; apply Hpost; try done; [|apply Hst'].
      destruct (dget_current _ _ _ _ _ Hwf Hr Hd) as [Hcur _].
      destruct (current_held _ _ _ _ _ Hwf Hcur) as [Hk Hlt].
      split; [split; [done|by rewrite M1]|]. right. rewrite M3.
      split; [apply Hst'|]. simpl. by rewrite N.eqb_refl.
    - apply (post_linpast _ _ _ _ _ Hp Hst); [done| |done]. apply (seen_now _ _ _ Hst), lad_none.
      rewrite Habs. unfold abs_lookup. by rewrite Hr, Ham.
  Qed.

  Lemma ok_los0 k v : pc_pre (PLos0 k v) -> pc_ok (PLos0 k v).
  Proof.
    intros Hp. pose proof Hp as [(seen & Hst) _]. unfold pc_ok. simpl.
    destruct (s_rd s !! k) as [e|] eqn:Hr; apply (post_tau _ _ Hp); try done; [|by exists seen].
    destruct (read_hit _ _ seen Hr) as (? & ? & ?). by exists seen.
  Qed.

  Lemma ok_losE k v e : pc_pre (PLosE k v e) -> pc_ok (PLosE k v e).
  Proof.
    intros Hp. pose proof Hp as [(seen & Hst & Hh & Hev) _]. unfold pc_ok. simpl.
    destruct (s_cell s e) as [| |p x] eqn:Hc; [apply (post_tau _ _ Hp); [done|by exists seen]..|].
    apply (post_linpast _ _ _ _ _ Hp Hst); [done| |done]. apply (seen_now _ _ _ Hst), los_present.
    rewrite Habs. unfold abs_lookup.
    rewrite (ever_rd _ _ _ _ _ Hwf Hh Hev); [by rewrite Hc|congruence].
  Qed.

  Lemma ok_losCas k v e : pc_pre (PLosCas k v e) -> pc_ok (PLosCas k v e).
  Proof.
    intros Hp. pose proof Hp as [(seen & Hst & Hh & Hev) Hlk]. unfold pc_ok. simpl.
    destruct (s_cell s e) as [| |p x] eqn:Hc; [|apply (post_tau _ _ Hp); [done|by exists seen]..].
    destruct (lin_facts g t _ seen Hst) as (H1 & H2).
    assert (s_rd s !! k = Some e) as Hr by (eapply ever_rd; eauto; congruence).
    assert (g_abs (g_l g) !! k = None) as Hnone.
    { rewrite Habs. unfold abs_lookup. by rewrite Hr, Hc. }
    simpl vop_of in H1, H2. rewrite (los_absent _ _ _ Hnone) in H1, H2.
    split; [done|]. split; [|split; [apply H2|by apply (lock_same _ _ _ Hp)]].
    eapply (OInv_write t s _ thr g k e (KVal (s_nextp s) v)) with (a := ALin); try done; [by left|congruence].
  Qed.

  Lemma ok_losLocked k v : pc_pre (PLosLocked k v) -> pc_ok (PLosLocked k v).
  Proof.
    intros Hp. pose proof Hp as [(seen & Hst) _]. unfold pc_ok. simpl.
    destruct (s_rd s !! k) as [e|] eqn:Hr; [|destruct (dget s k) as [e|] eqn:Hd].
    - destruct (unexpunge_fields s k e) as (U1 & U2 & U3 & U4 & U5).
      destruct (los_entry_step t (unexpunge s k e) thr g k v e seen) as (Ho' & Hst' & F2 & F4);
        [by apply OInv_unexpunge|left; by rewrite U1|done..|].
      destruct (los_locked_entry (unexpunge s k e) e v) as [s' r]. simpl in *.
      split; [done|]. split; [done|]. split; [done|]. apply (lock_same _ _ _ Hp); [done|by rewrite F4].
    - destruct (dget_current _ _ _ _ _ Hwf Hr Hd) as [Hcur Hne].
      assert (s_am s = true) as Ham by (by destruct Hcur as [?|(_ & ? & _)]; [congruence|]).
      destruct (los_entry_step t s thr g k v e seen Ho Hcur Hne Hst) as (Ho' & Hst' & F2 & F4).
      destruct (los_locked_entry s e v) as [s' r]. simpl in *.
      destruct (miss_locked_fields s') as (_ & M2 & _).
      split; [done|]. split; [|split; [done|apply (lock_same _ _ _ Hp); [done|by rewrite M2]]].
      apply OInv_miss_locked; [done|congruence].
    - apply (new_key_step _ k v _ seen _ Hp eq_refl Hst Hr Hd), los_absent.
      rewrite Habs. unfold abs_lookup. rewrite Hr, Hd. by destruct (s_am s).
  Qed.

  Lemma ok_all p :
    pc_pre p -> match p with PIdle | PRet _ => False | _ => True end -> pc_ok p.
  Proof.
    intros Hp Hsh. destruct p; try done.
    - by apply ok_unlock.
    - by apply ok_load0.
    - by apply (ok_try_lock (PLoadLock k) (PLoadLocked k)).
    - by apply ok_loadLocked.
    - by apply ok_loadE.
    - by apply ok_store0.
    - by apply ok_storeTry.
    - by apply ok_storeCas.
    - by apply (ok_try_lock (PStoreLock k v) (PStoreLocked k v)).
    - by apply ok_storeLocked.
    - by apply ok_del0.
    - by apply (ok_try_lock (PDelLock k) (PDelLocked k)).
    - by apply ok_delLocked.
    - by apply ok_delE.
    - by apply ok_delCas.
    - by apply ok_los0.
    - by apply ok_losE.
    - by apply ok_losCas.
    - by apply (ok_try_lock (PLosLock k v) (PLosLocked k v)).
    - by apply ok_losLocked.
  Qed.
End step.

Lemma step_all c g t : Inv c g -> step_ok c g t.
Proof.
  intros Hi. pose proof (Inv_OInv c g t Hi) as Ho.
  unfold step_ok, gstep, cstep, cstep_ann. destruct (c_thr c !! t) as [ts|] eqn:Ht.
  2:{ split; [done|]. simpl. by rewrite ghost_eta. }
  assert (forall s' p' todo' a ek' own' h', pc_post t (c_sh c) (c_thr c) g s' p' a ek' own' ->
            lg_ok (g_l g) t a /\
            Inv {| c_sh := s'; c_thr := <[t := {| t_pc := p'; t_todo := todo' |}]> (c_thr c);
                   c_hist := h' |} {| g_l := lg_step (g_l g) t a; g_ek := ek'; g_own := own' |} /\
            forall t', t' <> t -> s_lock s' = Some t' <-> s_lock (c_sh c) = Some t')
    as Hfin.
  { intros * (Hok & Ho' & Hti & Hlk & Hfr). split; [done|]. split; [by apply OInv_Inv|done]. }
  pose proof (conj (i_thr _ _ Hi _ _ Ht) (i_lock _ _ Hi _ _ Ht)
              : pc_pre t (c_sh c) g (t_pc ts)) as Hp.
  revert Hp. destruct (t_pc ts); intros Hp.
  1:{ destruct (t_todo ts) as [|o rest]; [split; [done|]; simpl; by rewrite ghost_eta|].
    apply Hfin, (post_stay _ _ _ _ Ho _ _ _ Hp); try done; [by destruct o|apply Hp|].
    destruct o; simpl; eexists; apply lookup_insert. }
  1:{ apply Hfin, (post_stay _ _ _ _ Ho _ _ _ Hp); try done; [apply Hp|]. apply lookup_delete. }
  all: pose proof (ok_all _ _ _ _ Ho _ Hp I) as Hok; revert Hok; unfold pc_ok;
    destruct (sstep t (c_sh c) _) as [[s' p'] a]; intros Hok; by apply Hfin.
Qed.

Lemma sstep_no_event t s p : ann_events t (snd (sstep t s p)) = [].
Proof.
  destruct p; simpl; unfold try_lock, los_locked_entry;
    repeat (case_match; simpl; try done); done.
Qed.

Definition tstep (t : nat) (s : shared) (ts : tstate) : shared * tstate * ann :=
  match t_pc ts with
  | PIdle =>
    match t_todo ts with
    | [] => (s, ts, ATau)
    | o :: rest => (s, {| t_pc := start_pc o; t_todo := rest |}, AInv o)
    end
  | PRet r => (s, {| t_pc := PIdle; t_todo := t_todo ts |}, ARet r)
  | p => let '(s', p', a) := sstep t s p in (s', {| t_pc := p'; t_todo := t_todo ts |}, a)
  end.

Lemma cstep_ann_eq c t :
  cstep_ann c t =
  match c_thr c !! t with
  | None => (c, ATau)
  | Some ts =>
    let '(s', ts', a) := tstep t (c_sh c) ts in
    ({| c_sh := s'; c_thr := <[t := ts']> (c_thr c); c_hist := c_hist c ++ ann_events t a |}, a)
  end.
Proof.
  unfold cstep_ann, tstep. destruct (c_thr c !! t) as [ts|] eqn:Ht; [|done].
  pose proof (sstep_no_event t (c_sh c) (t_pc ts)) as Hno.
  destruct (t_pc ts).
  1:{ destruct (t_todo ts); [|done]. destruct c; simpl in *. by rewrite insert_id, app_nil_r. }
  1:{ done. }
  all: destruct (sstep t (c_sh c) _) as [[s' p'] a]; simpl in *; by rewrite Hno, app_nil_r.
Qed.

Lemma hist_step c t :
  c_hist (cstep c t) = c_hist c ++ ann_events t (snd (cstep_ann c t)).
Proof.
  unfold cstep. rewrite cstep_ann_eq. destruct (c_thr c !! t) as [ts|]; [|simpl; by rewrite app_nil_r].
  by destruct (tstep t (c_sh c) ts) as [[s' ts'] a].
Qed.

Lemma sim_step c g t :
  Inv c g -> HInv (c_hist c) (g_l g) ->
  Inv (cstep c t) (gstep c t g) /\ HInv (c_hist (cstep c t)) (g_l (gstep c t g)).
Proof.
  intros Hi Hh. destruct (step_all c g t Hi) as (Hok & Hi' & _). split; [done|].
  rewrite hist_step. by apply HInv_step.
Qed.

Lemma init_pc threads t ts :
  c_thr (init_conf threads) !! t = Some ts -> t_pc ts = PIdle.
Proof.
  simpl. intros H. apply elem_of_list_to_map_2 in H.
  apply elem_of_lookup_imap in H as (i & ops & Heq & _). by inversion Heq.
Qed.

Lemma Inv_init threads : Inv (init_conf threads) g_init.
Proof.
  split.
  - split; simpl; try done.
  - intros k. simpl. unfold abs_lookup. simpl. by rewrite !lookup_empty.
  - intros t o seen. unfold status. simpl. by rewrite lookup_empty.
  - intros t ts Ht. rewrite (init_pc _ _ _ Ht). simpl. unfold status. simpl. apply lookup_empty.
  - intros t _. unfold status. simpl. apply lookup_empty.
  - intros t ts Ht. rewrite (init_pc _ _ _ Ht). simpl. split; done.
Qed.

Lemma run_inv sched : forall c g,
  Inv c g -> HInv (c_hist c) (g_l g) ->
  exists g', Inv (run_sched c sched) g' /\ HInv (c_hist (run_sched c sched)) (g_l g').
Proof.
  induction sched as [|t sched IH]; intros c g Hi Hh; simpl.
  { by exists g. }
  destruct (sim_step c g t Hi Hh) as [Hi' Hh']. by apply (IH (cstep c t) (gstep c t g)).
Qed.

Theorem valuemap_linearizable : forall (threads : list (list cop)) (sched : list nat),
  linearizable (history_of (run_sched (init_conf threads) sched)).
Proof.
  intros threads sched.
  destruct (run_inv sched (init_conf threads) g_init (Inv_init threads) HInv_init)
    as (g' & _ & Hh).
  by eapply HInv_linearizable.
Qed.


(* two threads, Store(1,5) racing with Load(1): the operations overlap in both runs and the
   Load sees the stored value under one schedule and misses it under the other *)
Definition race : list (list cop) := [[CStore 1 5]; [CLoad 1]].

(* sched_hit: both invoke; thread 0 runs its Store through the locked region and the unlock;
   thread 1 runs its whole Load (miss in read, lock, hit in dirty, unlock, load of the cell,
   response); thread 0 responds.  sched_miss: both invoke; thread 1's Load finds read empty and
   not amended and responds; thread 0 does its Store.  sched_rr: twelve rounds 0,1,2,2,1 over
   three threads.  Surplus entries find their thread idle with nothing to do. *)
Definition sched_hit : list nat := ([0;1;0;0;0;0] ++ repeat 1 8 ++ repeat 0 3)%nat.
Definition sched_miss : list nat := ([0;1;1;1] ++ repeat 0 8)%nat.
Definition sched_rr : list nat := (concat (repeat [0;1;2;2;1] 12))%nat.

Example race_load_hits :
  history_of (run_sched (init_conf race) sched_hit)
  = [EInv 0 (CStore 1 5); EInv 1 (CLoad 1); ERet 1 (ROpt (Some 5)); ERet 0 RNone].
Proof. vm_compute. reflexivity. Qed.

Example race_load_misses :
  history_of (run_sched (init_conf race) sched_miss)
  = [EInv 0 (CStore 1 5); EInv 1 (CLoad 1); ERet 1 (ROpt None); ERet 0 RNone].
Proof. vm_compute. reflexivity. Qed.

Example race_three_threads :
  history_of (run_sched
    (init_conf [[CStore 1 5; CLoadAndDelete 1]; [CLoad 1; CLoadOrStore 1 9]; [CStore 2 2; CLoad 1]])
    sched_rr)
  = [EInv 0 (CStore 1 5); EInv 1 (CLoad 1); EInv 2 (CStore 2 2); ERet 1 (ROpt None);
     EInv 1 (CLoadOrStore 1 9); ERet 2 RNone; EInv 2 (CLoad 1);
     ERet 1 (ROptB (Some 9) false); ERet 0 RNone; EInv 0 (CLoadAndDelete 1);
     ERet 2 (ROpt (Some 5))].
Proof. vm_compute. reflexivity. Qed.

(* `linearizable` is not trivially true: a Load that returns a value never stored is rejected *)
Example not_linearizable_example :
  ~ linearizable [EInv 0%nat (CLoad 1); ERet 0%nat (ROpt (Some 5))].
Proof.
  assert (forall l s r r' st, erase l = [ERet 0%nat r] ->
            replay (s, {[0%nat := SLin r']}) l = Some st -> r = r') as L2.
  { intros l s r r' st He Hr. destruct l as [|[t o|t|t r0] l]; try done; simpl in He, Hr.
    - destruct (decide (t = 0%nat)) as [->|Hne].
      + by rewrite lookup_singleton in Hr.
      + by rewrite lookup_singleton_ne in Hr.
    - inversion He; subst. rewrite lookup_singleton in Hr.
      destruct (decide (r = r')) as [->|Hne]; [done|]. by rewrite bool_decide_false in Hr. }
  assert (forall l s k r st, erase l = [ERet 0%nat r] ->
            replay (s, {[0%nat := SInv (CLoad k)]}) l = Some st -> r = ROpt (s !! k)) as L1.
  { intros l s k r st He Hr. destruct l as [|[t o|t|t r0] l]; try done; simpl in He, Hr.
    - destruct (decide (t = 0%nat)) as [->|Hne].
      + rewrite lookup_singleton in Hr.
        change (replay (s, <[0%nat:=SLin (ROpt (s !! k))]> {[0%nat := SInv (CLoad k)]}) l = Some st) in Hr.
        rewrite insert_singleton in Hr. by eapply L2.
      + by rewrite lookup_singleton_ne in Hr.
    - inversion He; subst. by rewrite lookup_singleton in Hr. }
  intros (l & He & [st Hr]).
  destruct l as [|[t o|t|t r0] l]; try done; simpl in He, Hr.
  - inversion He; subst. rewrite lookup_empty, insert_empty in Hr.
    pose proof (L1 _ _ _ _ _ H2 Hr) as Heq. by vm_compute in Heq.
Qed.

Print Assumptions valuemap_linearizable.

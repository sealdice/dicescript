(* C18 — lemmas about Model/St.v: the st.* stack machine on the code of an edit list. *)
From Coq Require Import NArith ZArith List Bool Lia.
From DS Require Import Model.Str Model.St.
Import ListNotations.

Lemma str_eqb_refl : forall s, str_eqb s s = true.
Proof. induction s; cbn; [reflexivity|]. now rewrite N.eqb_refl. Qed.

Lemma str_eqb_eq : forall a b, str_eqb a b = true <-> a = b.
Proof.
  induction a; destruct b; cbn; split; intro H; try reflexivity; try discriminate.
  - destruct (N.eqb_spec a n); [|discriminate]. subst. f_equal. now apply IHa.
  - inversion H; subst. rewrite N.eqb_refl. now apply IHa.
Qed.

Lemma exec_edit : forall e rest stk log,
  negatable e ->
  st_exec (compile_edit e ++ rest) stk log = st_exec rest stk (callback_of e :: log).
Proof.
  intros e rest stk log Hn. destruct e; cbn; try reflexivity.
  destruct o; cbn; try reflexivity.
  unfold negatable in Hn. cbn in Hn. destruct (neg v); [reflexivity|discriminate].
Qed.

Lemma exec_edits : forall es rest stk log,
  all_negatable es ->
  st_exec (compile_st es ++ rest) stk log = st_exec rest stk (rev (map callback_of es) ++ log).
Proof.
  induction es as [|e es IH]; intros rest stk log Hn; [reflexivity|].
  inversion Hn; subst. unfold compile_st in *. cbn [flat_map]. rewrite <- app_assoc.
  rewrite exec_edit by assumption. rewrite IH by assumption.
  cbn [map rev]. now rewrite <- app_assoc.
Qed.

(* once each, in source order, name verbatim, value evaluated (sign-normalised for `-`), operator *)
Theorem st_trace : forall es,
  all_negatable es -> st_run (compile_st es) = Some (map callback_of es).
Proof.
  intros es Hn. unfold st_run. rewrite <- (app_nil_r (compile_st es)).
  rewrite exec_edits by assumption. cbn. now rewrite app_nil_r, rev_involutive.
Qed.

Theorem st_trace_framed : forall es rest stk log,
  all_negatable es ->
  st_exec (compile_st es ++ rest) stk (rev log) = st_exec rest stk (rev (log ++ map callback_of es)).
Proof. intros. rewrite exec_edits by assumption. now rewrite rev_app_distr. Qed.

Theorem st_not_negatable_stops : forall es1 n v t es2,
  all_negatable es1 -> neg v = None ->
  st_exec (compile_st (es1 ++ EMod OpSub n v t :: es2)) [] [] = Failed (map callback_of es1).
Proof.
  intros es1 n v t es2 H1 Hv. unfold compile_st. rewrite flat_map_app.
  fold (compile_st es1). rewrite exec_edits by assumption. cbn. rewrite Hv.
  now rewrite app_nil_r, rev_involutive.
Qed.

Lemma not_negatable_fails : forall es stk log,
  ~ all_negatable es -> exists l, st_exec (compile_st es) stk log = Failed l.
Proof.
  induction es as [|e es IH]; intros stk log H.
  - exfalso. apply H. constructor.
  - unfold compile_st. cbn [flat_map]. destruct (negatableb e) eqn:He.
    + rewrite exec_edit by exact He. apply IH. intro Hall. apply H. constructor; assumption.
    + destruct e as [| | | |[] n v t]; try discriminate.
      cbn in *. destruct (neg v); [discriminate|eauto].
Qed.

Theorem st_not_negatable_is_error : forall es,
  ~ all_negatable es -> st_run (compile_st es) = None.
Proof.
  intros es H. unfold st_run. destruct (not_negatable_fails es [] [] H) as [l ->]. reflexivity.
Qed.

Definition sigs_post (log : list callback) (sigs : list (str * str * str)) (o : outcome) : Prop :=
  match o with
  | Done l => map cb_sig l = map cb_sig (rev log) ++ sigs
  | Failed l => exists k, map cb_sig l = map cb_sig (rev log) ++ firstn k sigs
  end.

(* an st.* instruction logs c, then stops on underflow or goes on *)
Lemma sigs_fire : forall c log sigs (u : bool) o,
  sigs_post (c :: log) sigs o ->
  sigs_post log (cb_sig c :: sigs) (if u then Failed (rev (c :: log)) else o).
Proof.
  intros c log sigs u o H. destruct u.
  - exists 1%nat. cbn [rev firstn]. rewrite map_app. reflexivity.
  - destruct o as [l|l]; cbn [sigs_post rev] in *; [|destruct H as [k H]; exists (S k)];
      rewrite H, map_app, <- app_assoc; reflexivity.
Qed.

Lemma sigs_exec : forall code stk log, sigs_post log (st_sigs code) (st_exec code stk log).
Proof.
  induction code as [|i rest IH]; intros stk log.
  - cbn. now rewrite app_nil_r.
  - destruct i; cbn [st_exec st_sigs sig_of]; try apply IH.
    + destruct (pop stk) as [[v s1] u1]. destruct (pop s1) as [[n s2] u2]. apply sigs_fire, IH.
    + destruct (pop stk) as [[v s1] u1]. destruct (pop s1) as [[n s2] u2].
      destruct (str_eqb op s_minus); [destruct (neg v)|]; try apply sigs_fire, IH.
      exists 0%nat. cbn. now rewrite app_nil_r.
    + destruct (pop stk) as [[v s1] u1]. destruct (pop s1) as [[n s2] u2]. apply sigs_fire, IH.
    + destruct (pop stk) as [[v s1] u1]. destruct (pop s1) as [[k s2] u2]. destruct (pop s2) as [[n s3] u3].
      apply sigs_fire, IH.
Qed.

Lemma st_sigs_length : forall code, length (st_sigs code) = count_st code.
Proof.
  unfold count_st. induction code as [|i r IH]; [reflexivity|].
  destruct i; cbn in *; auto.
Qed.

(* a successful run: the callbacks are exactly the st.* instructions of the code, in order, each with
   the type / op / text its instruction fixes *)
Theorem st_signatures : forall code log,
  st_run code = Some log -> map cb_sig log = st_sigs code.
Proof.
  intros code log H. unfold st_run in H. pose proof (sigs_exec code [] []) as S.
  destruct (st_exec code [] []); [|discriminate]. inversion H; subst. exact S.
Qed.

Theorem st_nothing_else : forall code log,
  st_run code = Some log -> length log = count_st code.
Proof.
  intros code log H. apply st_signatures in H.
  rewrite <- st_sigs_length, <- H. now rewrite map_length.
Qed.

Theorem st_failed_prefix : forall code l,
  st_exec code [] [] = Failed l -> exists k, map cb_sig l = firstn k (st_sigs code).
Proof.
  intros code l H. pose proof (sigs_exec code [] []) as S. rewrite H in S. exact S.
Qed.

Lemma count_st_compile : forall es, count_st (compile_st es) = length es.
Proof.
  unfold count_st, compile_st. induction es as [|e es IH]; [reflexivity|].
  cbn [flat_map]. rewrite filter_app, app_length, IH. destruct e; reflexivity.
Qed.

Lemma reported_sub_int : forall z, reported_value OpSub (SInt z) = SInt (wrap64 (- z)).
Proof. reflexivity. Qed.
Lemma reported_other : forall o v, o <> OpSub -> reported_value o v = v.
Proof. intros o v H. destruct o; try reflexivity. now elim H. Qed.
Lemma op_addeq_reported_as_add : op_text OpAddEq = op_text OpAdd.
Proof. reflexivity. Qed.

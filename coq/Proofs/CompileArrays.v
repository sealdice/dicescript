(* Compiler correctness for every constructor of Model/Ast.v: one induction over expressions (array literals, indexing
   and dice terms included), one over statements (while / break / continue included), one theorem about `run`; the
   results for programs without dice terms, without loops, without arrays are its special cases.  The induction over
   expressions also records that a scalar expression over scalar variables needs no fuel threshold and gives scalar
   results (`reachS`): that is `expr_correct`, for every amount of fuel, and with it the refutation of the statement
   about all programs (the loop that leaks one stack slot per iteration).

   On scalars the tie between values is the FUNCTION `inj : dv -> value` of Proofs/CompileProofs.v.  An array of the
   definition (a plain list) is a REFERENCE into the heap on the VM, so here the tie between the two is a
   RELATION relative to the heap:

     arel h a v        the definitional value a is what the VM value v denotes in heap h
     erel h env vars   the same for whole variable maps (same keys, same order, related values)
     heap_le h h'      h' extends h: every array id of h is still there with the same elements

   `arel` / `erel` are monotone in `heap_le`, allocation (`push.arr`, `+`, `*` on arrays) and `store`
   extend the heap in that sense, and nothing in the language writes into an existing array. *)
From Coq Require Import String Ascii NArith ZArith List Bool Lia.
From DS Require Import Model.Str Model.PCG Model.Roll Model.Dice Model.Value Model.VM Model.Ast Model.Denote Model.Compile
                       Proofs.VMFacts Proofs.CompileFacts Proofs.CompileProofs.
Import ListNotations.
Open Scope Z_scope.

Definition heap_le (h h' : heap) : Prop :=
  (h_next h <= h_next h')%N /\ (forall id, (id < h_next h)%N -> get_arr id h' = get_arr id h).

Lemma heap_le_refl : forall h, heap_le h h.
Proof. intros h; split; [lia|reflexivity]. Qed.
Lemma heap_le_trans : forall a b c, heap_le a b -> heap_le b c -> heap_le a c.
Proof.
  intros a b c [H1 H2] [H3 H4]. split; [lia|]. intros id Hid. rewrite H4 by lia. apply H2; exact Hid.
Qed.
Lemma heap_le_alloc : forall l h, heap_le h (snd (alloc_arr l h)).
Proof.
  intros l h. unfold alloc_arr; cbn [snd]. split; cbn [h_next]; [lia|].
  intros id Hid. unfold get_arr. cbn [h_arrs aget].
  replace (id =? h_next h)%N with false by (symmetry; apply N.eqb_neq; lia). reflexivity.
Qed.
Lemma heap_le_set_map : forall id m h, heap_le h (set_map id m h).
Proof. intros; split; cbn [set_map h_next]; [lia|reflexivity]. Qed.
Lemma get_arr_alloc_new : forall l h, get_arr (h_next h) (snd (alloc_arr l h)) = l.
Proof. intros; unfold get_arr, alloc_arr; cbn [snd h_arrs aget]. rewrite N.eqb_refl. reflexivity. Qed.

Inductive arel (h : heap) : dv -> value -> Prop :=
| ar_int : forall z, arel h (DvInt z) (VInt z)
| ar_str : forall s, arel h (DvStr s) (VStr s)
| ar_null : arel h DvNull VNull
| ar_arr : forall l id, (id < h_next h)%N -> Forall2 (arel h) l (get_arr id h) -> arel h (DvArr l) (VArr id).

Section ArelInd.
  Variable h : heap.
  Variable P : dv -> value -> Prop.
  Hypothesis Hi : forall z, P (DvInt z) (VInt z).
  Hypothesis Hs : forall s, P (DvStr s) (VStr s).
  Hypothesis Hn : P DvNull VNull.
  Hypothesis Ha : forall l id, (id < h_next h)%N -> Forall2 (arel h) l (get_arr id h) ->
                               Forall2 P l (get_arr id h) -> P (DvArr l) (VArr id).
  Fixpoint arel_ind' (a : dv) (v : value) (H : arel h a v) {struct H} : P a v :=
    match H in arel _ a v return P a v with
    | ar_int _ z => Hi z
    | ar_str _ s => Hs s
    | ar_null _ => Hn
    | ar_arr _ l id Hlt HF =>
      Ha l id Hlt HF
         ((fix go (l : list dv) (vs : list value) (HF : Forall2 (arel h) l vs) {struct HF} : Forall2 P l vs :=
             match HF in Forall2 _ l vs return Forall2 P l vs with
             | Forall2_nil _ => Forall2_nil P
             | Forall2_cons x y Hxy Hr => Forall2_cons x y (arel_ind' x y Hxy) (go _ _ Hr)
             end) l (get_arr id h) HF)
    end.
End ArelInd.

Lemma arel_mono : forall h h' a v, heap_le h h' -> arel h a v -> arel h' a v.
Proof.
  intros h h' a v [Hn Hg] H. induction H using arel_ind'; try constructor.
  - lia.
  - rewrite Hg by exact H. exact H1.
Qed.
Lemma Forall2_arel_mono : forall h h' l vs, heap_le h h' -> Forall2 (arel h) l vs -> Forall2 (arel h') l vs.
Proof. intros h h' l vs Hle H; induction H; constructor; [eapply arel_mono; eassumption|assumption]. Qed.

Lemma arel_fun : forall h a v, arel h a v -> forall b, arel h b v -> a = b.
Proof.
  intros h a v H. induction H using arel_ind'; intros b Hb; inversion Hb; subst; try reflexivity.
  f_equal. clear - H1 H5. revert l0 H5. induction H1; intros l0 H5; inversion H5; subst; [reflexivity|].
  f_equal; [apply H; assumption|apply IHForall2; assumption].
Qed.

Lemma Forall2_len : forall A B (R : A -> B -> Prop) l l', Forall2 R l l' -> length l = length l'.
Proof. intros A B R l l' H; induction H; cbn [length]; [reflexivity|rewrite IHForall2; reflexivity]. Qed.
Lemma Forall2_zlen : forall A B (R : A -> B -> Prop) l l', Forall2 R l l' -> zlen l = zlen l'.
Proof. intros A B R l l' H; induction H; [reflexivity|rewrite !zlen_cons, IHForall2; reflexivity]. Qed.

Lemma arel_truthy : forall fn h a v, arel h a v -> as_bool fn h v = truthy a.
Proof.
  intros fn h a v H; inversion H; subst; cbn [as_bool truthy]; try reflexivity.
  inversion H1; reflexivity.
Qed.

Definition erel (h : heap) (env : denv) (m : vmap) : Prop :=
  Forall2 (fun kv kv' => fst kv = fst kv' /\ arel h (snd kv) (snd kv')) env m.

Lemma erel_mono : forall h h' env m, heap_le h h' -> erel h env m -> erel h' env m.
Proof.
  intros h h' env m Hle H; induction H as [|[k a] [k' v] env m [Hk Hv] Hr IH]; constructor; [|exact IH].
  split; [exact Hk|eapply arel_mono; eassumption].
Qed.
Lemma erel_lookup : forall h env m x, erel h env m ->
  arel h (dlookup x env) (match mget x m with Some v => v | None => VNull end).
Proof.
  intros h env m x H. unfold dlookup.
  induction H as [|[k a] [k' v] env m [Hk Hv] Hr IH]; cbn [dget mget]; [constructor|].
  cbn [fst snd] in *. subst k'. destruct (String.eqb x k); [exact Hv|exact IH].
Qed.
Lemma erel_set : forall h env m x a v, erel h env m -> arel h a v -> erel h (dset x a env) (mset x v m).
Proof.
  intros h env m x a v H Hv; induction H as [|[k b] [k' w] env m [Hk Hw] Hr IH]; cbn [dset mset].
  - constructor; [split; [reflexivity|exact Hv]|constructor].
  - cbn [fst snd] in *. subst k'. destruct (String.eqb x k).
    + constructor; [split; [reflexivity|exact Hv]|exact Hr].
    + constructor; [split; [reflexivity|exact Hw]|exact IH].
Qed.

Lemma arel_inj : forall h a, scalar a -> arel h a (inj a).
Proof. intros h a Hs; destruct a; try contradiction; constructor. Qed.
Lemma erel_inj_env : forall h env, scalar_env env -> erel h env (inj_env env).
Proof.
  intros h env H; induction H as [|[k a] env Ha Hr IH]; cbn; constructor; [|exact IH].
  split; [reflexivity|apply arel_inj; exact Ha].
Qed.

Section DvInd.
  Variable P : dv -> Prop.
  Hypothesis Hi : forall z, P (DvInt z).
  Hypothesis Hs : forall s, P (DvStr s).
  Hypothesis Hn : P DvNull.
  Hypothesis Ha : forall l, Forall P l -> P (DvArr l).
  Fixpoint dv_ind' (a : dv) : P a :=
    match a with
    | DvInt z => Hi z
    | DvStr s => Hs s
    | DvNull => Hn
    | DvArr l => Ha l ((fix go (l : list dv) : Forall P l :=
                          match l with [] => Forall_nil P | x :: r => Forall_cons x (dv_ind' x) (go r) end) l)
    end.
End DvInd.

(* Where a recursion goes through a list with an inline `fix` (dv_depth below; in the model dv_eqb, value_equal_v, the
   fragments and budgets over EArr, dexpr on EArr, compile_expr on EArr), the proofs use a named Fixpoint over the list and
   one equation `.._arr` tying it to the inline one (for `gexpr` the two are convertible and `change` is enough). *)
Fixpoint depth_list (dep : dv -> nat) (l : list dv) : nat :=
  match l with [] => O | x :: r => Nat.max (dep x) (depth_list dep r) end.
(* nesting depth of arrays: the recursion fuel structural equality needs on the VM *)
Fixpoint dv_depth (a : dv) : nat :=
  match a with
  | DvArr l => S ((fix go (l : list dv) : nat := match l with [] => O | x :: r => Nat.max (dv_depth x) (go r) end) l)
  | _ => O
  end.
Lemma dv_depth_arr : forall l, dv_depth (DvArr l) = S (depth_list dv_depth l).
Proof. intros l. cbn [dv_depth]. f_equal. induction l as [|x r IH]; cbn [depth_list]; [reflexivity|rewrite IH; reflexivity]. Qed.

Fixpoint eqb_list (l1 l2 : list dv) : bool :=
  match l1, l2 with
  | [], [] => true
  | x :: r1, y :: r2 => if dv_eqb x y then eqb_list r1 r2 else false
  | _, _ => false
  end.
Lemma dv_eqb_arr : forall l1 l2, dv_eqb (DvArr l1) (DvArr l2) = eqb_list l1 l2.
Proof.
  intros l1 l2. cbn [dv_eqb]. revert l2. induction l1 as [|x r IH]; intros [|y r2]; cbn [eqb_list]; try reflexivity.
Qed.
Lemma eqb_list_length : forall l1 l2, eqb_list l1 l2 = true -> length l1 = length l2.
Proof.
  induction l1 as [|x r IH]; intros [|y r2]; cbn [eqb_list length]; try discriminate; [reflexivity|].
  destruct (dv_eqb x y); [intros H; f_equal; apply IH; exact H|discriminate].
Qed.
Lemma dv_eqb_refl : forall a, dv_eqb a a = true.
Proof.
  induction a using dv_ind'; try reflexivity.
  - cbn [dv_eqb]. apply Z.eqb_refl.
  - cbn [dv_eqb]. apply String.eqb_refl.
  - rewrite dv_eqb_arr. induction H as [|x r Hx Hr IH]; cbn [eqb_list]; [reflexivity|]. rewrite Hx. exact IH.
Qed.

Fixpoint veq_list (f : nat) (fn : fnames) (h : heap) (vis : list (N * N)) (l1 l2 : list value) : option bool :=
  match l1, l2 with
  | u :: r1, w :: r2 =>
    match value_equal_v f fn h vis u w with
    | None => None
    | Some false => Some false
    | Some true => veq_list f fn h vis r1 r2
    end
  | _, _ => Some true
  end.
Lemma value_equal_arr : forall f fn h vis x y,
  value_equal_v (S f) fn h vis (VArr x) (VArr y) =
  if negb (Nat.eqb (length (get_arr x h)) (length (get_arr y h))) then Some false
  else if (x =? y)%N || mem_pair x y vis then Some true
  else veq_list f fn h ((x, y) :: vis) (get_arr x h) (get_arr y h).
Proof.
  intros. cbn [value_equal_v]. destruct (negb _); [reflexivity|]. destruct (_ || _); [reflexivity|].
  generalize (get_arr y h). induction (get_arr x h) as [|u r1 IH]; intros [|w r2]; cbn [veq_list]; try reflexivity.
  destruct (value_equal_v f fn h ((x, y) :: vis) u w) as [[|]|]; try reflexivity. apply IH.
Qed.

(* The VM cuts cycles with the list `vis` of pairs being compared.  On values that denote definitional (tree-shaped)
   arrays the cut never fires: every pair in `vis` belongs to a strictly deeper definitional array than the one at hand. *)
Lemma value_equal_arel : forall fn h a va, arel h a va -> forall b vb, arel h b vb ->
  forall f vis, (dv_depth a < f)%nat ->
    (forall p q d, mem_pair p q vis = true -> arel h d (VArr p) -> (dv_depth a < dv_depth d)%nat) ->
    value_equal_v f fn h vis va vb = Some (dv_eqb a b).
Proof.
  intros fn h a va H. induction H using arel_ind'; intros b vb Hb f vis Hf Hvis; (destruct f as [|f]; [lia|]).
  - inversion Hb; subst; reflexivity.
  - inversion Hb; subst; reflexivity.
  - inversion Hb; subst; reflexivity.
  - inversion Hb as [| | |l2 id2 Hlt2 HF2]; subst; try reflexivity.
    rewrite value_equal_arr, dv_eqb_arr.
    assert (Ha : arel h (DvArr l) (VArr id)) by (constructor; assumption).
    rewrite <- (Forall2_len _ _ _ _ _ H0), <- (Forall2_len _ _ _ _ _ HF2).
    destruct (Nat.eqb (length l) (length l2)) eqn:El; cbn [negb].
    2:{ destruct (eqb_list l l2) eqn:Eq; [|reflexivity]. apply eqb_list_length in Eq. apply Nat.eqb_neq in El. contradiction. }
    apply Nat.eqb_eq in El.
    destruct (id =? id2)%N eqn:Eid; cbn [orb].
    { apply N.eqb_eq in Eid. subst id2. pose proof (arel_fun h _ _ Ha _ Hb) as X. inversion X; subst l2.
      rewrite <- dv_eqb_arr. rewrite dv_eqb_refl. reflexivity. }
    destruct (mem_pair id id2 vis) eqn:Em.
    { pose proof (Hvis id id2 _ Em Ha). lia. }
    rewrite dv_depth_arr in Hf, Hvis.
    assert (Hvis' : forall x, (dv_depth x <= depth_list dv_depth l)%nat ->
              forall p q d, mem_pair p q ((id, id2) :: vis) = true -> arel h d (VArr p) -> (dv_depth x < dv_depth d)%nat).
    { intros x Hx p q d Hm Hd. cbn [mem_pair] in Hm. destruct ((p =? id) && (q =? id2))%N eqn:Epq.
      - apply andb_true_iff in Epq. destruct Epq as [Ep _]. apply N.eqb_eq in Ep. subst p.
        rewrite <- (arel_fun h _ _ Ha _ Hd). rewrite dv_depth_arr. lia.
      - pose proof (Hvis p q d Hm Hd). lia. }
    clear Hvis Hb Ha H0 Em Eid.
    revert l2 HF2 El. generalize dependent (get_arr id2 h). 
    induction H1 as [|x y l vs Hxy Hr IH]; intros vs2 l2 HF2 El; inversion HF2 as [|x2 y2 l2' vs2' Hxy2 Hr2]; subst;
      cbn [length] in El; try discriminate; cbn [veq_list eqb_list]; [reflexivity|].
    cbn [depth_list] in Hf, Hvis'.
    rewrite (Hxy x2 y2 Hxy2 f ((id, id2) :: vis)); [| lia | apply Hvis'; lia].
    destruct (dv_eqb x x2); [|reflexivity].
    apply IH; try assumption; try lia.
    intros z Hz. apply Hvis'. lia.
Qed.

Lemma arel_scalar : forall h a va, arel h a va -> scalar a -> va = inj a.
Proof. intros h a va H Hs; inversion H; subst; try reflexivity; contradiction. Qed.

Definition okres (w : world) (v : dv) (r : R value) : Prop :=
  exists vv h', r = ROk vv (w_set_heap w h') /\ heap_le (w_heap w) h' /\ arel h' v vv
                /\ (forall id, get_map id h' = get_map id (w_heap w)).

Lemma okres_same : forall w v vv, arel (w_heap w) v vv -> okres w v (ROk vv w).
Proof.
  intros [h p s c] v vv H. exists vv, h. cbn [w_heap] in *.
  split; [reflexivity|]. split; [apply heap_le_refl|]. split; [exact H|reflexivity].
Qed.
Lemma new_arr_ok : forall w l vs, Forall2 (arel (w_heap w)) l vs -> okres w (DvArr l) (new_arr vs w).
Proof.
  intros w l vs H. unfold new_arr, alloc_arr. cbv beta iota.
  eexists _, _. split; [reflexivity|].
  pose proof (heap_le_alloc vs (w_heap w)) as Hle. unfold alloc_arr in Hle; cbn [snd] in Hle.
  split; [exact Hle|]. split; [|reflexivity].
  constructor; [cbn [h_next]; lia|].
  pose proof (get_arr_alloc_new vs (w_heap w)) as G. unfold alloc_arr in G; cbn [snd] in G. rewrite G.
  eapply Forall2_arel_mono; eassumption.
Qed.
Lemma Forall2_repeat_list : forall A B (R : A -> B -> Prop) l vs n,
  Forall2 R l vs -> Forall2 R (repeat_list l n) (repeat_list vs n).
Proof. intros A B R l vs n H; induction n; cbn [repeat_list]; [constructor|apply Forall2_app; assumption]. Qed.

Lemma array_repeat_ok : forall w l id t vt,
  Forall2 (arel (w_heap w)) l (get_arr id (w_heap w)) -> arel (w_heap w) t vt ->
  match arr_repeat l t with
  | inl v => okres w v (array_repeat id vt w)
  | inr e => array_repeat id vt w = RFail e w
  end.
Proof.
  intros w l id t vt HF Ht. inversion Ht; subst; cbn [arr_repeat array_repeat]; try reflexivity.
  rewrite <- (Forall2_zlen _ _ _ _ _ HF). unfold arr_limit.
  destruct (z <? 0); [reflexivity|].
  destruct ((512 <? wrap64 (zlen l * z)) || ((0 <? zlen l) && (512 <? z))); [reflexivity|].
  apply new_arr_ok. inversion HF; subst; [constructor|]. apply Forall2_repeat_list. constructor; assumption.
Qed.

(* `o <> BAnd`: OpAnd is a case of `step` of its own, not an entry of `bin_op` *)
Lemma bin_op_arel : forall E r o a b va vb w,
  arel (w_heap w) a va -> arel (w_heap w) b vb -> o <> BAnd -> (dv_depth a <= r)%nat ->
  match bin_sem (e_cfg E) o a b with
  | BV v => okres w v (bin_op (S r) E (bin_opcode o) va vb w)
  | BE c => bin_op (S r) E (bin_opcode o) va vb w = RFail c w
  | BU _ => True
  end.
Proof.
  intros E r o a b va vb w Ha Hb Ho Hr.
  assert (Heq : value_equal (S r) (e_fn E) (w_heap w) va vb = Some (dv_eqb a b)).
  { unfold value_equal. eapply value_equal_arel; try eassumption; [lia|]. intros p q d Hm; discriminate. }
  destruct o; try congruence; cbn [bin_sem bin_opcode].
  - (* + *)
    inversion Ha; inversion Hb; subst; cbn [bin_op]; try reflexivity; try (apply okres_same; constructor).
    rewrite <- (Forall2_zlen _ _ _ _ _ H0), <- (Forall2_zlen _ _ _ _ _ H4). unfold arr_limit.
    destruct (512 <? zlen l + zlen l0); [reflexivity|]. apply new_arr_ok. apply Forall2_app; assumption.
  - clear Heq; destruct Ha, Hb; cbn [bin_op int_op]; try reflexivity; apply okres_same; constructor.
  - (* * *)
    inversion Ha; subst; cbn [bin_op].
    + inversion Hb; subst; try reflexivity; [apply okres_same; constructor|].
      pose proof (array_repeat_ok w l id (DvInt z) (VInt z) H0 Ha) as X.
      destruct (arr_repeat l (DvInt z)); exact X.
    + inversion Hb; subst; reflexivity.
    + inversion Hb; subst; reflexivity.
    + pose proof (array_repeat_ok w l id b vb H0 Hb) as X. destruct (arr_repeat l b); exact X.
  - (* / *)
    clear Heq; destruct Ha, Hb; cbn [bin_op int_op]; try reflexivity.
    destruct (z0 =? 0); [destruct (cfg_ignore_div0 (e_cfg E))|]; try reflexivity; apply okres_same; constructor.
  - clear Heq; destruct Ha, Hb; cbn [bin_op int_op]; try reflexivity.
    destruct (z0 =? 0); try reflexivity; apply okres_same; constructor.
  - clear Heq; destruct Ha, Hb; cbn [bin_op int_op]; try reflexivity.
    destruct (int_pow z z0); [apply okres_same; constructor|exact Logic.I].
  - (* ?? *)
    cbn [bin_op]. apply okres_same. inversion Ha; subst; try assumption.
  - clear Heq; destruct Ha, Hb; cbn [bin_op int_op]; try reflexivity; apply okres_same; unfold dbool, vbool; constructor.
  - clear Heq; destruct Ha, Hb; cbn [bin_op int_op]; try reflexivity; apply okres_same; unfold dbool, vbool; constructor.
  - cbn [bin_op]. rewrite Heq. apply okres_same. unfold dbool, vbool; constructor.
  - cbn [bin_op]. rewrite Heq. apply okres_same. unfold dbool, vbool; constructor.
  - clear Heq; destruct Ha, Hb; cbn [bin_op int_op]; try reflexivity; apply okres_same; unfold dbool, vbool; constructor.
  - clear Heq; destruct Ha, Hb; cbn [bin_op int_op]; try reflexivity; apply okres_same; unfold dbool, vbool; constructor.
  - clear Heq; destruct Ha, Hb; cbn [bin_op int_op]; try reflexivity; apply okres_same; constructor.
  - clear Heq; destruct Ha, Hb; cbn [bin_op int_op]; try reflexivity; apply okres_same; constructor.
Qed.

Lemma item_get_arel : forall a i va vi w,
  arel (w_heap w) a va -> arel (w_heap w) i vi ->
  match index_sem a i with
  | BV v => exists vv, item_get va vi w = ROk vv w /\ arel (w_heap w) v vv
  | BE c => item_get va vi w = RFail c w
  | BU _ => True
  end.
Proof.
  intros a i va vi w Ha Hi. inversion Ha; subst; cbn [index_sem item_get]; try reflexivity.
  - inversion Hi; subst; try reflexivity. cbv zeta.
    destruct (get_real_index z (zlen (runes s))); [|reflexivity]. eexists; split; [reflexivity|constructor].
  - inversion Hi; subst; try reflexivity. cbv zeta.
    rewrite <- (Forall2_zlen _ _ _ _ _ H0).
    destruct (get_real_index z (zlen l)) as [k|]; [|reflexivity]. eexists; split; [reflexivity|].
    unfold znth. generalize (Z.to_nat k). clear - H0. induction H0; intros [|n]; cbn [nth]; try constructor; auto.
Qed.

Lemma bin_op_fuel_indep : forall E r1 r2 o a b va vb w,
  arel (w_heap w) a va -> arel (w_heap w) b vb -> (dv_depth a <= r1)%nat -> (dv_depth a <= r2)%nat ->
  bin_op (S r1) E (bin_opcode o) va vb w = bin_op (S r2) E (bin_opcode o) va vb w.
Proof.
  intros E r1 r2 o a b va vb w Ha Hb H1 H2.
  assert (Heq : forall r, (dv_depth a <= r)%nat -> value_equal (S r) (e_fn E) (w_heap w) va vb = Some (dv_eqb a b)).
  { intros r Hr. unfold value_equal. eapply value_equal_arel; try eassumption; [lia|]. intros p q d Hm; discriminate. }
  destruct o; try reflexivity; cbn [bin_opcode bin_op]; rewrite (Heq r1 H1), (Heq r2 H2); reflexivity.
Qed.

Fixpoint arr_expr (e : expr) : Prop :=
  match e with
  | EInt _ | EStr _ | ENull | ETrue | EFalse => True
  | EVar x => mem_s x builtin_names = false
  | EAssign _ e1 | EUn _ e1 => arr_expr e1
  | EBin _ l r | EOr l r | EIdx l r => arr_expr l /\ arr_expr r
  | ETern c a b => arr_expr c /\ arr_expr a /\ arr_expr b
  | EArr l => (fix go (l : list expr) : Prop := match l with [] => True | x :: r => arr_expr x /\ go r end) l
  | ERoll _ _ => False
  end.
Fixpoint arr_items (l : list expr) : Prop := match l with [] => True | x :: r => arr_expr x /\ arr_items r end.
Lemma arr_expr_arr : forall l, arr_expr (EArr l) = arr_items l.
Proof. intros l. reflexivity. Qed.

(* operand-stack slots an expression needs above the current top: the items of an array literal stay on the
   stack until push.arr collects them *)
Fixpoint aneed (e : expr) : Z :=
  match e with
  | EAssign _ e1 | EUn _ e1 => aneed e1
  | EBin _ l r | EIdx l r => Z.max (aneed l) (1 + aneed r)
  | EOr l r => Z.max (aneed l) (aneed r)
  | ETern c a b => Z.max (aneed c) (Z.max (aneed a) (aneed b))
  | EArr l => Z.max 1 ((fix go (l : list expr) : Z := match l with [] => 0 | x :: r => Z.max (aneed x) (1 + go r) end) l)
  | _ => 1
  end.
Fixpoint need_items (l : list expr) : Z := match l with [] => 0 | x :: r => Z.max (aneed x) (1 + need_items r) end.
Lemma aneed_arr : forall l, aneed (EArr l) = Z.max 1 (need_items l).
Proof. intros l. reflexivity. Qed.
Lemma aneed_core : forall e, core_expr e -> aneed e = need e.
Proof.
  induction e using expr_ind'; cbn [core_expr aneed need]; intros Hc; try reflexivity; try contradiction;
    repeat match goal with H : _ /\ _ |- _ => destruct H end;
    rewrite ?IHe, ?IHe1, ?IHe2, ?IHe3 by assumption; reflexivity.
Qed.
Lemma core_arr_expr : forall e, core_expr e -> arr_expr e.
Proof.
  induction e using expr_ind'; cbn [core_expr arr_expr]; intros Hc; try exact Hc; try contradiction; auto;
    repeat match goal with H : _ /\ _ |- _ => destruct H end; repeat split; auto.
Qed.

Fixpoint ditems (cfg : config) (l : list expr) (env : denv) (acc : list dv) : eres :=
  match l with
  | [] => EV (DvArr (rev acc)) env
  | x :: r => match dexpr cfg x env with
              | EV v env1 => ditems cfg r env1 (v :: acc)
              | y => y
              end
  end.
Lemma dexpr_arr : forall cfg l env, dexpr cfg (EArr l) env = ditems cfg l env [].
Proof.
  intros cfg l env. cbn [dexpr]. generalize (@nil dv). revert env.
  induction l as [|x r IH]; intros env acc; cbn [ditems]; [reflexivity|].
  destruct (dexpr cfg x env); try reflexivity. apply IH.
Qed.
Lemma Forall2_rev : forall A B (R : A -> B -> Prop) l l', Forall2 R l l' -> Forall2 R (rev l) (rev l').
Proof. intros A B R l l' H; induction H; cbn [rev]; [constructor|apply Forall2_app; [assumption|repeat constructor; assumption]]. Qed.

Fixpoint arr_stmt (s : stmt) : Prop :=
  match s with
  | SNop => True
  | SExpr e => arr_expr e
  | SSeq a b => arr_stmt a /\ arr_stmt b
  | SIf c t e => arr_expr c /\ arr_stmt t /\ arr_stmt e
  | SWhile _ _ | SBreak | SContinue => False
  end.
Fixpoint asneed (s : stmt) : Z :=
  match s with
  | SExpr e => aneed e
  | SSeq a b => Z.max (asneed a) (leaves a + asneed b)
  | SIf c t e => Z.max 2 (Z.max (aneed c) (Z.max (asneed t) (asneed e)))
  | _ => 0
  end.
Lemma core_arr_stmt : forall s, core_stmt s -> arr_stmt s.
Proof.
  induction s; cbn [core_stmt arr_stmt]; intros Hc; try exact Hc; try (apply core_arr_expr; exact Hc).
  - destruct Hc; split; auto.
  - destruct Hc as [H1 [H2 H3]]. split; [apply core_arr_expr; exact H1|split; auto].
Qed.
Lemma asneed_core : forall s, core_stmt s -> asneed s = sneed s.
Proof.
  induction s; cbn [core_stmt asneed sneed]; intros Hc; try reflexivity.
  - apply aneed_core; exact Hc.
  - destruct Hc. rewrite IHs1, IHs2 by assumption. reflexivity.
  - destruct Hc as [H1 [H2 H3]]. rewrite IHs1, IHs2, (aneed_core _ H1) by assumption. reflexivity.
Qed.

Fixpoint loop_stmt (s : stmt) : Prop :=
  match s with
  | SNop | SBreak | SContinue => True
  | SExpr e => arr_expr e
  | SSeq a b => loop_stmt a /\ loop_stmt b
  | SIf c t e => arr_expr c /\ loop_stmt t /\ loop_stmt e
  | SWhile c b => arr_expr c /\ loop_stmt b
  end.
(* operand-stack slots a statement leaves behind when it completes normally (`while` ends with block.pop: one slot) *)
Fixpoint wleaves (s : stmt) : Z :=
  match s with
  | SExpr _ => 1
  | SSeq a b => wleaves a + wleaves b
  | SIf _ _ _ => 2
  | SWhile _ _ => 1
  | _ => 0
  end.
(* operand-stack slots a statement needs when every execution of a loop makes at most n iterations: each iteration
   leaves the slots of its body behind (finding while-body-stack-leak), they are only released when the loop ends *)
Fixpoint wneed (n : Z) (s : stmt) : Z :=
  match s with
  | SNop => 0
  | SExpr e => aneed e
  | SSeq a b => Z.max (wneed n a) (wleaves a + wneed n b)
  | SIf c t e => Z.max 2 (Z.max (aneed c) (Z.max (wneed n t) (wneed n e)))
  | SWhile c b => n * wleaves b + Z.max 1 (Z.max (aneed c) (wneed n b))
  | SBreak | SContinue => 2
  end.
Fixpoint wbneed (s : stmt) : Z :=
  match s with
  | SSeq a b => Z.max (wbneed a) (wbneed b)
  | SIf _ t e => 1 + Z.max (wbneed t) (wbneed e)
  | SWhile _ b => 1 + wbneed b
  | _ => 0
  end.
Lemma wleaves_nonneg : forall s, 0 <= wleaves s.
Proof. induction s; cbn [wleaves]; lia. Qed.
Lemma wbneed_nonneg : forall s, 0 <= wbneed s.
Proof. induction s; cbn [wbneed]; lia. Qed.
Lemma wleaves_arr : forall s, arr_stmt s -> wleaves s = leaves s.
Proof. induction s; cbn [arr_stmt wleaves leaves]; intros H; try reflexivity; try contradiction. destruct H; rewrite IHs1, IHs2; auto. Qed.
Lemma wneed_arr : forall n s, arr_stmt s -> wneed n s = asneed s.
Proof.
  intros n; induction s; cbn [arr_stmt wneed asneed]; intros H; try reflexivity; try contradiction.
  - destruct H. rewrite IHs1, IHs2, wleaves_arr by assumption. reflexivity.
  - destruct H as [_ [H1 H2]]. rewrite IHs1, IHs2 by assumption. reflexivity.
Qed.
Lemma wbneed_arr : forall s, arr_stmt s -> wbneed s = bneed s.
Proof.
  induction s; cbn [arr_stmt wbneed bneed]; intros H; try reflexivity; try contradiction.
  - destruct H. rewrite IHs1, IHs2 by assumption. reflexivity.
  - destruct H as [_ [H1 H2]]. rewrite IHs1, IHs2 by assumption. reflexivity.
Qed.
Lemma arr_loop_stmt : forall s, arr_stmt s -> loop_stmt s.
Proof.
  induction s; cbn [arr_stmt loop_stmt]; intros H; try exact H; try contradiction; auto.
  - destruct H; split; auto.
  - destruct H as [H0 [H1 H2]]; repeat split; auto.
Qed.

(* the saved heights of the `if` blocks open inside a loop body: innermost first, non-increasing, none below lo *)
Fixpoint desc (lo : Z) (l : list Z) : Prop :=
  match l with
  | [] => True
  | a :: r => lo <= a /\ match r with [] => True | b :: _ => b <= a end /\ desc lo r
  end.
Lemma desc_last : forall lo a r, desc lo (a :: r) -> last (a :: r) 0 <= a.
Proof.
  intros lo a r; revert a; induction r as [|b r IH]; intros a H; [cbn; lia|].
  destruct H as [_ [Hb Hr]]. change (last (a :: b :: r) 0) with (last (b :: r) 0). pose proof (IH b Hr). lia.
Qed.

(* Every constructor of Model/Ast.v.  What the proof has to know about a roll (under min / max mode it draws nothing
   and does not depend on the fuel) is proved in Proofs/CompileDice.v; here it is the condition D on which dice terms
   are admitted, and the fragments without dice terms need no D. *)
Section Fragment.
  Variable D : Prop.
  Fixpoint gexpr (e : expr) : Prop :=
    match e with
    | EInt _ | EStr _ | ENull | ETrue | EFalse => True
    | EVar x => mem_s x builtin_names = false
    | EAssign _ e1 | EUn _ e1 => gexpr e1
    | EBin _ l r | EOr l r | EIdx l r => gexpr l /\ gexpr r
    | ERoll l r => D /\ gexpr l /\ gexpr r
    | ETern c a b => gexpr c /\ gexpr a /\ gexpr b
    | EArr l => (fix go (l : list expr) : Prop := match l with [] => True | x :: r => gexpr x /\ go r end) l
    end.
  Fixpoint gitems (l : list expr) : Prop := match l with [] => True | x :: r => gexpr x /\ gitems r end.
  Fixpoint gstmt (s : stmt) : Prop :=
    match s with
    | SNop | SBreak | SContinue => True
    | SExpr e => gexpr e
    | SSeq a b => gstmt a /\ gstmt b
    | SIf c t e => gexpr c /\ gstmt t /\ gstmt e
    | SWhile c b => gexpr c /\ gstmt b
    end.
End Fragment.

(* operand-stack slots above the current top.  For XdY: x is popped by dice.setTimes before y is evaluated, so the two
   operands do not add up *)
Fixpoint gneed (e : expr) : Z :=
  match e with
  | EAssign _ e1 | EUn _ e1 => gneed e1
  | EBin _ l r | EIdx l r => Z.max (gneed l) (1 + gneed r)
  | EOr l r | ERoll l r => Z.max (gneed l) (gneed r)
  | ETern c a b => Z.max (gneed c) (Z.max (gneed a) (gneed b))
  | EArr l => Z.max 1 ((fix go (l : list expr) : Z := match l with [] => 0 | x :: r => Z.max (gneed x) (1 + go r) end) l)
  | _ => 1
  end.
Fixpoint gneed_items (l : list expr) : Z := match l with [] => 0 | x :: r => Z.max (gneed x) (1 + gneed_items r) end.
Lemma gneed_arr : forall l, gneed (EArr l) = Z.max 1 (gneed_items l).
Proof. intros l. reflexivity. Qed.
Lemma gneed_pos : forall e, 1 <= gneed e.
Proof. induction e using expr_ind'; try rewrite gneed_arr; cbn [gneed]; lia. Qed.

Lemma arr_gexpr : forall D e, arr_expr e -> gexpr D e.
Proof.
  intros D; induction e using expr_ind'; cbn [arr_expr gexpr]; intros Hc; try exact Hc; try contradiction; auto;
    try (repeat match goal with H : _ /\ _ |- _ => destruct H end; repeat split; auto; fail).
  change (arr_items l) in Hc. change (gitems D l).
  induction H as [|x r Hx Hr IH]; cbn [arr_items gitems] in *; [exact Logic.I|].
  destruct Hc; split; auto.
Qed.
Lemma gneed_arr_expr : forall e, arr_expr e -> gneed e = aneed e.
Proof.
  induction e using expr_ind'; cbn [arr_expr]; intros Hc; try reflexivity; try contradiction;
    try (cbn [gneed aneed]; repeat match goal with H : _ /\ _ |- _ => destruct H end;
         rewrite ?IHe, ?IHe1, ?IHe2, ?IHe3 by assumption; reflexivity).
  change (arr_items l) in Hc. rewrite gneed_arr, aneed_arr. f_equal.
  induction H as [|x r Hx Hr IH]; cbn [arr_items gneed_items need_items] in *; [reflexivity|].
  destruct Hc. rewrite Hx, IH by assumption. reflexivity.
Qed.

Fixpoint gwneed (n : Z) (s : stmt) : Z :=
  match s with
  | SNop => 0
  | SExpr e => gneed e
  | SSeq a b => Z.max (gwneed n a) (wleaves a + gwneed n b)
  | SIf c t e => Z.max 2 (Z.max (gneed c) (Z.max (gwneed n t) (gwneed n e)))
  | SWhile c b => n * wleaves b + Z.max 1 (Z.max (gneed c) (gwneed n b))
  | SBreak | SContinue => 2
  end.
Lemma gwneed_nonneg : forall n s, 0 <= n -> 0 <= gwneed n s.
Proof.
  intros n s Hn; induction s; cbn [gwneed]; try lia.
  - pose proof (gneed_pos e); lia.
  - pose proof (wleaves_nonneg s). nia.
Qed.
Lemma wleaves_le_gwneed : forall n s, 0 <= n -> wleaves s <= gwneed n s.
Proof.
  intros n s Hn; induction s; cbn [wleaves gwneed]; try lia.
  - pose proof (gneed_pos e); lia.
  - pose proof (wleaves_nonneg s). nia.
Qed.
Lemma loop_gstmt : forall D s, loop_stmt s -> gstmt D s.
Proof.
  intros D; induction s; cbn [loop_stmt gstmt]; intros H; try exact H; try (apply arr_gexpr; exact H).
  - destruct H; split; auto.
  - destruct H as [H0 [H1 H2]]; repeat split; auto using arr_gexpr.
  - destruct H as [H0 H1]; split; auto using arr_gexpr.
Qed.
Lemma gwneed_loop_stmt : forall n s, loop_stmt s -> gwneed n s = wneed n s.
Proof.
  intros n; induction s; cbn [loop_stmt gwneed wneed]; intros H; try reflexivity.
  - apply gneed_arr_expr; exact H.
  - destruct H. rewrite IHs1, IHs2 by assumption. reflexivity.
  - destruct H as [H0 [H1 H2]]. rewrite IHs1, IHs2, (gneed_arr_expr _ H0) by assumption. reflexivity.
  - destruct H as [H0 H1]. rewrite IHs, (gneed_arr_expr _ H0) by assumption. reflexivity.
Qed.

Definition roll_fixed (cfg : config) : Prop := forall times sides,
  roll_mode cfg <> 0 -> 0 <= times -> 1 <= sides ->
  exists num txt, forall fuel (s : pcg),
    roll_common pcg_next fuel times sides None None 0 0 0 (roll_mode cfg) s = Roll.Done ((num, txt), s).

Definition roll_sem (cfg : config) (t : Z) (b : dv) : bres :=
  match b with
  | DvInt s => if s <=? 0 then BE EDice else dice_sem cfg t s
  | _ => BE EDice
  end.

Definition dtimes (t : Z) : dstate :=
  {| d_times := t; d_keep := 0; d_low := 0; d_high := 0; d_min := None; d_max := None |}.

Lemma dexpr_roll : forall cfg x y env,
  dexpr cfg (ERoll x y) env =
  match dexpr cfg x env with
  | EV a env1 =>
    match a with
    | DvInt t => if t <=? 0 then EE EDice env1
                 else match dexpr cfg y env1 with
                      | EV b env2 => lift_b (roll_sem cfg t b) env2
                      | r => r
                      end
    | _ => EE EDice env1
    end
  | r => r
  end.
Proof.
  intros cfg x y env. cbn [dexpr].
  destruct (dexpr cfg x env) as [[t| | |] env1| |]; try reflexivity.
  destruct (t <=? 0); try reflexivity.
  destruct (dexpr cfg y env1) as [[s| | |] env2| |]; try reflexivity.
  unfold roll_sem. destruct (s <=? 0); reflexivity.
Qed.

(* a conjunction into its parts *)
Ltac splits := repeat match goal with |- _ /\ _ => split end.

Section Run.
  Variable E : env.
  Hypothesis Hlim : cfg_op_limit (e_cfg E) = 0.
  Variable prog : code.
  Variables (wod : wodstate) (dc : dcstate) (src : option string) (pcg0 : pcg) (st0 : list stcall) (attrs : N).

  (* the machine of CompileProofs with the dice-state stack explicit: a dice term opens and closes a dice state *)
  Notation MD d := (CompileProofs.M prog d wod dc src pcg0 st0 attrs).
  Notation steps := (CompileProofs.steps E).
  Notation counted := (CompileProofs.counted E).
  Notation popped := (CompileProofs.popped E).
  Notation code_at := (CompileProofs.code_at prog).
  Notation instr_at := (CompileProofs.instr_at prog).
  Notation D := (roll_fixed (e_cfg E)).
  (* a lemma of the section of CompileProofs, at dice-state stack d *)
  Notation cp L d := (L E Hlim prog d wod dc src pcg0 st0 attrs) (only parsing).

  (* the fuel left is also the recursion fuel of structural equality inside one instruction, and arrays nest *)
  Definition stepsK (m m' : machine) : Prop :=
    exists n K, forall fuel, (K <= fuel)%nat -> exec (n + S fuel) E m = exec (S fuel) E m'.
  Lemma stepsK_refl : forall m, stepsK m m.
  Proof. intros; exists 0%nat, 0%nat; reflexivity. Qed.
  Lemma steps_stepsK : forall a b, steps a b -> stepsK a b.
  Proof. intros a b [n H]. exists n, 0%nat. intros fuel _. apply H. Qed.

  Definition failsR (m : machine) (c : eclass) (env : denv) : Prop :=
    exists n K m', (forall fuel, (K <= fuel)%nat -> exec (n + S fuel) E m = Fail c m')
                   /\ erel (w_heap (m_w m')) env (vars_of_m m').

  Definition reach (h0 : heap) (m : machine) (r : eres) (tgt : value -> heap -> vol -> machine) : Prop :=
    match r with
    | EV v env' => exists vv h' j', stepsK m (tgt vv h' j') /\ arel h' v vv /\ erel h' env' (get_map attrs h') /\ heap_le h0 h'
    | EE c env' => failsR m c env'
    | EU _ => True
    end.
  (* the same with the fuel threshold explicit: K is the recursion fuel `==` needs, none on scalars.  A run that stops at
     a failing instruction hands that instruction the fuel itself where a run that goes on hands it one more (compare
     failsAt_now with one_stepAt), hence `S K` in the error case *)
  Definition stepsAt (K : nat) (m m' : machine) : Prop :=
    exists n, forall fuel, (K <= fuel)%nat -> exec (n + S fuel) E m = exec (S fuel) E m'.
  Definition failsAt (K : nat) (m : machine) (c : eclass) (env : denv) : Prop :=
    exists n m', (forall fuel, (K <= fuel)%nat -> exec (n + S fuel) E m = Fail c m') /\ erel (w_heap (m_w m')) env (vars_of_m m').
  Definition reachA (K : nat) (h0 : heap) (m : machine) (r : eres) (tgt : value -> heap -> vol -> machine) : Prop :=
    match r with
    | EV v env' => exists vv h' j', stepsAt K m (tgt vv h' j') /\ arel h' v vv /\ erel h' env' (get_map attrs h') /\ heap_le h0 h'
    | EE c env' => failsAt (S K) m c env'
    | EU _ => True
    end.
  Lemma stepsAt_trans : forall K1 K2 a b c, stepsAt K1 a b -> stepsAt K2 b c -> stepsAt (Nat.max K1 K2) a c.
  Proof.
    intros K1 K2 a b c [n1 H1] [n2 H2]. exists (n1 + n2)%nat. intros fuel Hf.
    replace (n1 + n2 + S fuel)%nat with (n1 + S (n2 + fuel))%nat by lia. rewrite H1 by lia.
    replace (S (n2 + fuel)) with (n2 + S fuel)%nat by lia. apply H2. lia.
  Qed.
  Lemma stepsAt_failsAt : forall K1 K2 a b c env, stepsAt K1 a b -> failsAt K2 b c env -> failsAt (Nat.max K1 K2) a c env.
  Proof.
    intros K1 K2 a b c env [n1 H1] [n2 [m' [H2 Hv]]]. exists (n1 + n2)%nat, m'. split; [|exact Hv]. intros fuel Hf.
    replace (n1 + n2 + S fuel)%nat with (n1 + S (n2 + fuel))%nat by lia. rewrite H1 by lia.
    replace (S (n2 + fuel)) with (n2 + S fuel)%nat by lia. apply H2. lia.
  Qed.
  (* stepsK and failsR are stepsAt and failsAt at some K *)
  Lemma stepsK_trans : forall a b c, stepsK a b -> stepsK b c -> stepsK a c.
  Proof.
    intros a b c [n1 [K1 H1]] [n2 [K2 H2]].
    destruct (stepsAt_trans K1 K2 a b c (ex_intro _ n1 H1) (ex_intro _ n2 H2)) as [n H]. exists n, (Nat.max K1 K2). exact H.
  Qed.
  Lemma stepsK_failsR : forall a b c env, stepsK a b -> failsR b c env -> failsR a c env.
  Proof.
    intros a b c env [n1 [K1 H1]] [n2 [K2 [m' H2]]].
    destruct (stepsAt_failsAt K1 K2 a b c env (ex_intro _ n1 H1) (ex_intro _ n2 (ex_intro _ m' H2))) as [n [m H]].
    exists n, (Nat.max K1 K2), m. exact H.
  Qed.
  Lemma reachA_pre : forall K1 K2 h0 h1 m m1 r tgt, stepsAt K1 m m1 -> heap_le h0 h1 -> reachA K2 h1 m1 r tgt ->
    reachA (Nat.max K1 K2) h0 m r tgt.
  Proof.
    intros K1 K2 h0 h1 m m1 [v env'|c env'|w] tgt S Hle; cbn [reachA]; trivial.
    - intros [vv [h' [j' [S' [Hv [He Hle']]]]]]. exists vv, h', j'. splits; try assumption.
      + eapply stepsAt_trans; eassumption. + eapply heap_le_trans; eassumption.
    - intros F. pose proof (stepsAt_failsAt _ _ _ _ _ _ S F) as [n [m' [X Y]]]. exists n, m'. split; [|exact Y].
      intros fuel Hf. apply X. lia.
  Qed.
  Lemma reachA_reach : forall K h0 m r tgt, reachA K h0 m r tgt -> reach h0 m r tgt.
  Proof.
    intros K h0 m [v env'|c env'|w] tgt; cbn [reachA reach]; trivial.
    - intros [vv [h' [j' [[n S] R]]]]. exists vv, h', j'. split; [exists n, K; exact S|exact R].
    - intros [n [m' [F R]]]. exists n, (S K), m'. split; assumption.
  Qed.

  (* ... and with what the scalar fragment adds: `sc` says that the expression and the variables are scalar, and then there
     is no threshold and the result is scalar.  Lemmas about instructions that no scalar expression compiles to (arrays,
     dice) conclude `reach` and ask for `sc = true -> False`, the form in which `core_expr e` refutes `sc` for them *)
  Definition reachS (sc : bool) (h0 : heap) (m : machine) (r : eres) (tgt : value -> heap -> vol -> machine) : Prop :=
    exists K, reachA K h0 m r tgt /\ (sc = true -> K = 0%nat /\ sc_eres r).
  Lemma reachS_steps : forall sc h0 m m1 r tgt, steps m m1 -> reachS sc h0 m1 r tgt -> reachS sc h0 m r tgt.
  Proof.
    intros sc h0 m m1 r tgt [n S] [K [A R]]. exists K. split; [|exact R].
    replace K with (Nat.max 0 K) by lia. eapply reachA_pre; [exists n; intros fuel _; apply S|apply heap_le_refl|exact A].
  Qed.
  (* the match in the conclusion is the one `dexpr` has in every constructor with a sub-expression *)
  Lemma reachS_bind : forall sc h0 m r (k : dv -> denv -> eres) tgt mid,
    reachS sc h0 m r mid ->
    (forall v env1 vv h1 j1, arel h1 v vv -> erel h1 env1 (get_map attrs h1) -> heap_le h0 h1 ->
       (sc = true -> scalar v /\ scalar_env env1) -> reachS sc h1 (mid vv h1 j1) (k v env1) tgt) ->
    reachS sc h0 m (match r with EV v env1 => k v env1 | EE c e => EE c e | EU w => EU w end) tgt.
  Proof.
    intros sc h0 m [v env1|c env1|w] k tgt mid [K1 [A R1]] Hk; [|exists K1; split; assumption|exists 0%nat; split; [exact Logic.I|intros; split; [reflexivity|exact Logic.I]]].
    destruct A as [vv [h1 [j1 [S [Hv [He Hle]]]]]].
    destruct (Hk v env1 vv h1 j1 Hv He Hle (fun Hs => proj2 (R1 Hs))) as [K2 [A2 R2]].
    exists (Nat.max K1 K2). split; [eapply reachA_pre; eassumption|].
    intros Hs. destruct (R1 Hs) as [-> _]. destruct (R2 Hs) as [-> X]. split; [reflexivity|exact X].
  Qed.
  Lemma reachS_then : forall sc h0 m r tgt mid,
    reachS sc h0 m r mid ->
    (forall v env1 vv h1 j1, arel h1 v vv -> erel h1 env1 (get_map attrs h1) -> heap_le h0 h1 ->
       (sc = true -> scalar v /\ scalar_env env1) -> reachS sc h1 (mid vv h1 j1) (EV v env1) tgt) ->
    reachS sc h0 m r tgt.
  Proof. intros sc h0 m r tgt mid H K. pose proof (reachS_bind sc h0 m r EV tgt mid H K) as X. destruct r; exact X. Qed.
  Lemma reachS_of : forall sc K h0 m r tgt, reachA K h0 m r tgt -> (sc = true -> K = 0%nat /\ sc_eres r) -> reachS sc h0 m r tgt.
  Proof. intros sc K h0 m r tgt A R. exists K. split; assumption. Qed.
  Lemma reachS_reach : forall sc h0 m r tgt, reachS sc h0 m r tgt -> reach h0 m r tgt.
  Proof. intros sc h0 m r tgt [K [A _]]. eapply reachA_reach; exact A. Qed.
  Lemma reach_reachS : forall sc h0 m r tgt, (sc = true -> False) -> reach h0 m r tgt -> reachS sc h0 m r tgt.
  Proof.
    intros sc h0 m [v env'|c env'|w] tgt Hs; cbn [reach].
    - intros [vv [h' [j' [[n [K S]] R]]]]. exists K. split; [exists vv, h', j'; split; [exists n; exact S|exact R]|intros X; destruct (Hs X)].
    - intros [n [K [m' [F R]]]]. exists K. split; [exists n, m'; split; [intros fuel Hf; apply F; lia|exact R]|intros X; destruct (Hs X)].
    - intros _. exists 0%nat. split; [exact Logic.I|intros X; destruct (Hs X)].
  Qed.

  (* one_step: one turn of the loop of evaluate() at the machine in the goal (exec_S, through exec1), leaving the instruction
     to compute; it introduces `fuel`.  one_stepsK: the same for a `stepsK` goal; one_stepAt: with a fuel threshold K,
     introducing `Hfuel : K <= fuel`.  eq_m: two machines are equal field by field, up to arithmetic *)
  Ltac exec1 fuel Hi Htop :=
    rewrite (exec_S E Hlim prog _ wod dc src pcg0 st0 attrs fuel _ _ _ _ _ _ Hi Htop).
  Ltac one_step Hi Htop :=
    exists 1%nat; intros fuel; change (1 + S fuel)%nat with (S (S fuel)); exec1 (S fuel) Hi Htop.
  Ltac one_stepsK Hi Htop := apply steps_stepsK; one_step Hi Htop.
  Ltac one_stepAt Hi Htop :=
    exists 1%nat; intros fuel Hfuel; change (1 + S fuel)%nat with (S (S fuel)); exec1 (S fuel) Hi Htop.
  Ltac eq_m := unfold CompileProofs.M, vpush, CompileProofs.popped, vpop; simp_m; rewrite ?zlen_cons; repeat f_equal; try lia.

  Section FixedDice.
  Variable dice : list dstate.
  Notation M := (MD dice).

  Lemma failsAt_now : forall pc live blocks h j ins c env K,
    instr_at pc ins -> zlen live < stack_size -> erel h env (get_map attrs h) ->
    (exists fr, forall fuel, (K <= fuel)%nat ->
       step (exec fuel E) fuel E ins (M pc live blocks h (counted j))
       = SFail c (mk fr (m_w (M pc live blocks h (counted j))))) ->
    failsAt K (M pc live blocks h j) c env.
  Proof.
    intros pc live blocks h j ins c env K Hi Hne Henv [fr Hs]. exists 0%nat. eexists. split.
    - intros fuel Hf. change (0 + S fuel)%nat with (S fuel). exec1 fuel Hi Hne. rewrite (Hs fuel Hf). reflexivity.
    - exact Henv.
  Qed.
  Lemma failsR_now : forall pc live blocks h j ins c env K,
    instr_at pc ins -> zlen live < stack_size -> erel h env (get_map attrs h) ->
    (exists fr, forall fuel, (K <= fuel)%nat ->
       step (exec fuel E) fuel E ins (M pc live blocks h (counted j))
       = SFail c (mk fr (m_w (M pc live blocks h (counted j))))) ->
    failsR (M pc live blocks h j) c env.
  Proof.
    intros pc live blocks h j ins c env K Hi Hne Henv Hs.
    destruct (failsAt_now _ _ _ _ _ _ _ _ K Hi Hne Henv Hs) as [n [m' F]]. exists n, K, m'. exact F.
  Qed.

  Lemma load_arel : forall x h env,
    erel h env (get_map attrs h) -> mem_s x builtin_names = false ->
    exists v, arel h (dlookup x env) v /\
      forall call ops,
        load_name call E x false {| w_heap := h; w_pcg := pcg0; w_st := st0; w_chain := [{| c_attrs := attrs; c_ops := ops |}] |}
        = ROk v {| w_heap := h; w_pcg := pcg0; w_st := st0; w_chain := [{| c_attrs := attrs; c_ops := ops |}] |}.
  Proof.
    intros x h env Henv Hb. pose proof (erel_lookup h env _ x Henv) as G.
    eexists. split; [exact G|]. intros call ops.
    unfold load_name. cbn [w_chain length load_walk nth_error c_attrs w_heap].
    remember (dlookup x env) as a eqn:Ea. clear Ea.
    remember (match mget x (get_map attrs h) with Some v => v | None => VNull end) as v eqn:Ev. clear Ev.
    destruct G; cbn [sync_to sync_back rmapw rbind load_walk]; try reflexivity.
    unfold load_global. rewrite Hb. reflexivity.
  Qed.

  Lemma step_ldd : forall pc live blocks h j x env,
    erel h env (get_map attrs h) -> mem_s x builtin_names = false ->
    instr_at pc (I OpLdD (OStr x)) -> zlen live < 1000 ->
    reachA 0 h (M pc live blocks h j) (EV (dlookup x env) env) (fun vv h' j' => M (pc + 1) (vv :: live) blocks h' j').
  Proof.
    intros pc live blocks h j x env Henv Hb Hi Htop.
    destruct (load_arel x h env Henv Hb) as [v [Hv Hl]].
    exists v, h, {| v_dead := tl (v_dead j); v_last := v_last j;
                    v_details := match v_details j with [] => [(0, 0)] | _ => v_details j end; v_ops := v_ops (counted j) |}.
    split; [|splits; auto using heap_le_refl].
    one_stepAt Hi Htop. cbn [step i_op i_arg CompileProofs.M m_fr m_w arg_str].
    rewrite Hl.
    unfold lift, check_err, last_detail. cbn [fr_details v_details CompileProofs.counted].
    destruct (v_details j) eqn:Ed; simp_m; unfold do_push, push; simp_m; rewrite (leb_size _ Htop); eq_m.
  Qed.

  Lemma step_unary : forall pc a va live blocks h j o env,
    arel h a va -> erel h env (get_map attrs h) ->
    instr_at pc (I (un_opcode o) ONil) -> zlen (va :: live) < 1000 ->
    reachA 0 h (M pc (va :: live) blocks h j) (lift_b (un_sem o a) env) (fun vv h' j' => M (pc + 1) (vv :: live) blocks h' j').
  Proof.
    intros pc a va live blocks h j o env Ha Henv Hi Htop.
    assert (Hl : zlen live < 999) by (rewrite zlen_cons in Htop; lia).
    destruct Ha; cbn [un_sem lift_b reachA].
    1: { eexists _, h, (vpush (popped (VInt z) (zlen live) j)).
      split; [|splits; auto using heap_le_refl; constructor].
      one_stepAt Hi Htop. destruct o; cbn [un_opcode step i_op i_arg CompileProofs.M m_fr m_w with_pop pop fr_live];
        simp_m; unfold do_push, push; simp_m; rewrite zlen_cons;
        rewrite leb_size by (unfold stack_size; lia);
        eq_m. }
    all: eapply (failsAt_now _ _ _ _ _ _ _ _ _ Hi Htop Henv); eexists; intros fuel _.
    all: destruct o; cbn [un_opcode step i_op i_arg CompileProofs.M m_fr m_w with_pop pop fr_live]; reflexivity.
  Qed.

  Lemma step_binop : forall pc a b va vb live blocks h j o env,
    arel h a va -> arel h b vb -> erel h env (get_map attrs h) -> o <> BAnd ->
    instr_at pc (I (bin_opcode o) ONil) -> zlen (vb :: va :: live) < 1000 ->
    reachA (dv_depth a) h (M pc (vb :: va :: live) blocks h j) (lift_b (bin_sem (e_cfg E) o a b) env)
          (fun vv h' j' => M (pc + 1) (vv :: live) blocks h' j').
  Proof.
    intros pc a b va vb live blocks h j o env Ha Hb Henv Ho Hi Htop.
    assert (Hl : zlen live < 998) by (rewrite !zlen_cons in Htop; lia).
    set (W := fun ops => {| w_heap := h; w_pcg := pcg0; w_st := st0; w_chain := [{| c_attrs := attrs; c_ops := ops |}] |}).
    assert (Hind : forall r ops, (dv_depth a <= r)%nat ->
              bin_op (S r) E (bin_opcode o) va vb (W ops) = bin_op (S (dv_depth a)) E (bin_opcode o) va vb (W ops)).
    { intros r ops Hr. apply (bin_op_fuel_indep E r (dv_depth a) o a b va vb (W ops)); auto. }
    pose proof (bin_op_arel E (dv_depth a) o a b va vb (W (v_ops (counted j))) Ha Hb Ho (Nat.le_refl _)) as X.
    destruct (bin_sem (e_cfg E) o a b) as [v|c|why]; cbn [lift_b reachA]; [| |exact Logic.I].
    - destruct X as [vv [h' [Hr [Hle [Hv Hmaps]]]]].
      exists vv, h', (vpush (vpop va (zlen live) (popped vb (zlen live + 1) j))).
      split; [|split; [exact Hv|split; [rewrite Hmaps; eapply erel_mono; eassumption|exact Hle]]].
      one_stepAt Hi Htop. rewrite (step_bin_shape _ _ _ o _ Ho).
      cbn [CompileProofs.M m_fr m_w with_pop2 with_pop pop fr_live]. simp_m. cbn [with_pop pop fr_live]. simp_m.
      fold (W (v_ops (counted j))). rewrite (Hind _ _ Hfuel), Hr. unfold lift, check_err. simp_m. unfold do_push, push. simp_m.
      rewrite !zlen_cons.
      rewrite leb_size by (unfold stack_size; lia).
      unfold W. eq_m.
    - eapply (failsAt_now _ _ _ _ _ _ _ _ (S (dv_depth a)) Hi Htop Henv). eexists. intros fuel Hfuel.
      destruct fuel as [|fuel]; [lia|].
      rewrite (step_bin_shape _ _ _ o _ Ho).
      cbn [CompileProofs.M m_fr m_w with_pop2 with_pop pop fr_live]. simp_m. cbn [with_pop pop fr_live]. simp_m.
      fold (W (v_ops (counted j))). rewrite (Hind fuel _ ltac:(lia)), X. destruct c; reflexivity.
  Qed.

  Lemma step_itemget : forall pc a i va vi live blocks h j env,
    arel h a va -> arel h i vi -> erel h env (get_map attrs h) ->
    instr_at pc (I OpItemGet ONil) -> zlen (vi :: va :: live) < 1000 ->
    reach h (M pc (vi :: va :: live) blocks h j) (lift_b (index_sem a i) env) (fun vv h' j' => M (pc + 1) (vv :: live) blocks h' j').
  Proof.
    intros pc a i va vi live blocks h j env Ha Hvi Henv Hi Htop.
    assert (Hl : zlen live < 998) by (rewrite !zlen_cons in Htop; lia).
    set (W := fun ops => {| w_heap := h; w_pcg := pcg0; w_st := st0; w_chain := [{| c_attrs := attrs; c_ops := ops |}] |}).
    pose proof (item_get_arel a i va vi (W (v_ops (counted j))) Ha Hvi) as X.
    destruct (index_sem a i) as [v|c|why]; cbn [lift_b reach]; [| |exact Logic.I].
    - destruct X as [vv [Hr Hv]].
      exists vv, h, (vpush (vpop va (zlen live) (popped vi (zlen live + 1) j))).
      split; [|splits; auto using heap_le_refl].
      one_stepsK Hi Htop.
      cbn [step i_op i_arg CompileProofs.M m_fr m_w with_pop2 with_pop pop fr_live]. simp_m. cbn [with_pop pop fr_live]. simp_m.
      fold (W (v_ops (counted j))). rewrite Hr. unfold lift, check_err. simp_m. unfold do_push, push. simp_m.
      rewrite !zlen_cons.
      rewrite leb_size by (unfold stack_size; lia).
      unfold W. eq_m.
    - eapply (failsR_now _ _ _ _ _ _ _ _ 0%nat Hi Htop Henv). eexists. intros fuel _.
      cbn [step i_op i_arg CompileProofs.M m_fr m_w with_pop2 with_pop pop fr_live]. simp_m. cbn [with_pop pop fr_live]. simp_m.
      fold (W (v_ops (counted j))). rewrite X. reflexivity.
  Qed.

  Lemma pop_n_aux_M : forall a pc live blocks h j acc,
    exists j', pop_n_aux (length a) (m_fr (M pc (a ++ live) blocks h j)) acc = (rev a ++ acc, m_fr (M pc live blocks h j'))
               /\ v_details j' = v_details j /\ v_ops j' = v_ops j.
  Proof.
    induction a as [|x a IH]; intros pc live blocks h j acc.
    - exists j. repeat split; reflexivity.
    - cbn [length pop_n_aux app].
      set (j1 := vpop x (zlen (a ++ live)) j).
      assert (Hp : pop (m_fr (M pc (x :: a ++ live) blocks h j)) = (x, m_fr (M pc (a ++ live) blocks h j1))).
      { unfold pop. cbn [CompileProofs.M m_fr fr_live]. simp_m. f_equal. unfold j1, vpop. simp_m. rewrite zlen_cons. repeat f_equal; lia. }
      rewrite Hp. destruct (IH pc live blocks h j1 (x :: acc)) as [j' [H1 [H2 H3]]].
      exists j'. rewrite H1. cbn [rev]. rewrite <- app_assoc. repeat split; assumption.
  Qed.

  Lemma step_pusharr : forall pc vs live blocks h j,
    instr_at pc (I OpPushArr (OInt (zlen vs))) -> zlen (vs ++ live) < 1000 ->
    exists j', steps (M pc (vs ++ live) blocks h j) (M (pc + 1) (VArr (h_next h) :: live) blocks (snd (alloc_arr (rev vs) h)) j').
  Proof.
    intros pc vs live blocks h j Hi Htop.
    assert (Hl : zlen live < 1000) by (rewrite zlen_app in Htop; pose proof (zlen_nonneg _ vs); lia).
    assert (Hls : (stack_size <=? zlen live) = false) by (apply Z.leb_gt; unfold stack_size; lia).
    destruct vs as [|x vs'] eqn:Evs.
    - exists (vpush (counted j)).
      one_step Hi Htop. cbn [step i_op i_arg CompileProofs.M m_fr m_w arg_int app]. unfold with_pop_n, pop_n.
      change (zlen (@nil value) <=? 0) with true. cbv iota beta. unfold alloc_arr. simp_m. unfold do_push, push. simp_m.
      rewrite Hls. cbn [rev snd]. eq_m.
    - rewrite <- Evs in *.
      destruct (pop_n_aux_M vs pc live blocks h (counted j) []) as [j1 [Hp [Hd Ho]]].
      exists {| v_dead := tl (v_dead j1); v_last := match rev vs ++ [] with v :: _ => LVal v | [] => v_last j1 end;
                v_details := v_details j1; v_ops := v_ops j1 |}.
      one_step Hi Htop. cbn [step i_op i_arg arg_int]. unfold with_pop_n, pop_n.
      assert (Hz : (zlen vs <=? 0) = false) by (apply Z.leb_gt; rewrite Evs, zlen_cons; pose proof (zlen_nonneg _ vs'); lia).
      rewrite Hz. replace (Z.to_nat (zlen vs)) with (length vs) by (unfold zlen; lia).
      rewrite Hp. cbv iota beta. unfold alloc_arr. cbn [CompileProofs.M m_fr m_w]. simp_m. unfold do_push, push. simp_m.
      rewrite Hls. cbn [snd]. rewrite app_nil_r. unfold CompileProofs.M. simp_m. rewrite ?zlen_cons. rewrite Ho. reflexivity.
  Qed.

  Lemma step_binop_all : forall pc a b va vb live blocks h j o env,
    arel h a va -> arel h b vb -> erel h env (get_map attrs h) ->
    instr_at pc (I (bin_opcode o) ONil) -> zlen (vb :: va :: live) < 1000 ->
    reachA (dv_depth a) h (M pc (vb :: va :: live) blocks h j) (lift_b (bin_sem (e_cfg E) o a b) env)
          (fun vv h' j' => M (pc + 1) (vv :: live) blocks h' j').
  Proof.
    intros pc a b va vb live blocks h j o env Ha Hb Henv Hi Htop.
    destruct o; try (apply step_binop; try assumption; discriminate).
    destruct ((cp step_and dice) pc va vb live blocks h j Hi Htop) as [j' [n Hj]].
    rewrite (arel_truthy _ _ _ _ Ha) in Hj.
    exists (if truthy a then vb else va), h, j'. splits; auto using heap_le_refl; [exists n; intros fuel _; apply Hj|].
    destruct (truthy a); assumption.
  Qed.

  (* invariant of the induction over statements: the innermost open `if` block was saved at most one above the current
     top, and if exactly one above (the branch has left nothing yet) the stale slot just above the top is there to be
     raised by block.pop *)
  Definition head_ok (ifb : list Z) (live : list value) (j : vol) : Prop :=
    match ifb with
    | [] => True
    | a :: _ => a <= zlen live + 1 /\ (a = zlen live + 1 -> exists y, v_dead j = y :: tl (v_dead j))
    end.

  Lemma step_blockpop_any : forall pc live pre base a blocks h j,
    live = pre ++ base -> zlen base <= a -> a <= zlen live + 1 ->
    (a = zlen live + 1 -> exists y, v_dead j = y :: tl (v_dead j)) ->
    zlen live <= 999 -> a <= 998 ->
    instr_at pc (I OpBlockPop ONil) ->
    exists j' junk, stepsK (M pc live (a :: blocks) h j) (M (pc + 1) (VNull :: junk ++ base) blocks h j')
                    /\ zlen (junk ++ base) = a.
  Proof.
    intros pc live pre base a blocks h j Hlive Hlo Hhi Hdead Hl Ha Hi.
    destruct (Z.eq_dec a (zlen live + 1)) as [Heq|Hneq].
    - destruct (Hdead Heq) as [y Hy]. subst a.
      destruct ((cp step_blockpop_raise dice) pc y live blocks h j Hi ltac:(lia) Hy) as [j' Hj].
      exists j', (y :: pre). split; [apply steps_stepsK; subst live; exact Hj|].
      subst live. cbn [app]. apply zlen_cons.
    - assert (Hle : a <= zlen live) by lia.
      set (k := Z.to_nat (zlen live - a)).
      assert (Hk : (k <= length pre)%nat).
      { subst live. rewrite zlen_app in Hle. unfold k. rewrite zlen_app. unfold zlen in *. lia. }
      assert (Hsplit : live = firstn k live ++ (skipn k pre ++ base)).
      { rewrite <- (firstn_skipn k live) at 1. f_equal. subst live. rewrite skipn_app.
        replace (k - length pre)%nat with 0%nat by lia. reflexivity. }
      assert (Hz : zlen (skipn k pre ++ base) = a).
      { assert (Hlen : length live = (length (firstn k live) + length (skipn k pre ++ base))%nat)
          by (rewrite Hsplit at 1; apply app_length).
        rewrite firstn_length in Hlen.
        assert (k <= length live)%nat by (subst live; rewrite app_length; lia).
        unfold zlen in *. unfold k in *. lia. }
      rewrite Hsplit, <- Hz.
      destruct ((cp step_blockpop_lower dice) pc (firstn k live) (skipn k pre ++ base) blocks h j Hi) as [j' Hj].
      { rewrite <- Hsplit. lia. }
      exists j', (skipn k pre). split; [apply steps_stepsK; exact Hj|reflexivity].
  Qed.

  Lemma pops_correct : forall ifb lb base rest pre live j pc h,
    code_at pc (pops (length ifb) ++ rest) -> live = pre ++ base -> desc (zlen base) ifb -> head_ok ifb live j ->
    zlen live <= 999 -> (match ifb with [] => True | a :: _ => a <= 998 end) ->
    exists j' junk, stepsK (M pc live (ifb ++ lb) h j) (M (pc + zlen (pops (length ifb))) (junk ++ base) lb h j')
                    /\ zlen (junk ++ base) = match ifb with [] => zlen live | _ => last ifb 0 + 1 end.
  Proof.
    induction ifb as [|a r IH]; intros lb base rest pre live j pc h Hat Hlive Hdesc Hhead Hl Ha.
    - exists j, pre. cbn [length pops repeat app]. rewrite zlen_nil, Z.add_0_r. subst live. split; [apply stepsK_refl|reflexivity].
    - cbn [length pops repeat app] in Hat |- *. destruct Hhead as [Hh1 Hh2]. destruct Hdesc as [Hd1 [Hd2 Hd3]].
      destruct (step_blockpop_any pc live pre base a (r ++ lb) h j Hlive Hd1 Hh1 Hh2 Hl Ha (code_at_head _ _ _ _ Hat)) as [j1 [junk1 [Hst1 Hz1]]].
      destruct (IH lb base rest (VNull :: junk1) (VNull :: junk1 ++ base) j1 (pc + 1) h (code_at_tail _ _ _ _ Hat) eq_refl Hd3)
        as [j2 [junk2 [Hst2 Hz2]]].
      { destruct r as [|b r']; [exact Logic.I|]. unfold head_ok. rewrite zlen_cons, Hz1. split; [lia|intros; lia]. }
      { rewrite zlen_cons, Hz1. lia. }
      { destruct r as [|b r']; [exact Logic.I|lia]. }
      exists j2, junk2. split.
      + rewrite zlen_cons. fold (pops (length r)). replace (pc + (zlen (pops (length r)) + 1)) with (pc + 1 + zlen (pops (length r))) by lia.
        eapply stepsK_trans; eassumption.
      + rewrite Hz2. destruct r as [|b r']; [rewrite zlen_cons, Hz1; reflexivity|reflexivity].
  Qed.

  (* break and continue: leave the `if` blocks open inside the loop body, then jump *)
  Lemma pops_jmp : forall ifb lb base pre live j pc h off,
    code_at pc (pops (length ifb) ++ [I OpJmp (OInt off)]) -> live = pre ++ base -> desc (zlen base) ifb -> head_ok ifb live j ->
    zlen live + 2 <= 999 ->
    exists j' junk, stepsK (M pc live (ifb ++ lb) h j) (M (pc + zlen (pops (length ifb)) + off + 1) (junk ++ base) lb h j')
                    /\ zlen (junk ++ base) = match ifb with [] => zlen live | _ => last ifb 0 + 1 end
                    /\ zlen (junk ++ base) <= zlen live + 2.
  Proof.
    intros ifb lb base pre live j pc h off Hat Hlive Hdesc Hhead Hroom.
    assert (Ha : match ifb with [] => True | a :: _ => a <= 998 end).
    { destruct ifb as [|a r]; [exact Logic.I|]. destruct Hhead as [Hh _]. lia. }
    destruct (pops_correct ifb lb base _ pre live j pc h Hat Hlive Hdesc Hhead ltac:(lia) Ha) as [j1 [junk [Hst Hz]]].
    assert (Hz2 : zlen (junk ++ base) <= zlen live + 2).
    { rewrite Hz. destruct ifb as [|a r]; [lia|]. pose proof (desc_last _ _ _ Hdesc). destruct Hhead as [Hh _]. lia. }
    exists (counted j1), junk. split; [|split; assumption].
    eapply stepsK_trans; [exact Hst|]. apply steps_stepsK, ((cp step_jmp dice) _ (junk ++ base) lb h j1 off (code_at_head _ _ _ _ (code_at_app_r _ _ _ _ Hat))). lia.
  Qed.

  (* bound on the stack height at the loop head after `continue`: the blocks popped on the way put one value each on the
     height the outermost of them had saved *)
  Definition cont_top (ifb : list Z) (live : list value) (s : stmt) : Z :=
    match ifb with [] => zlen live + wleaves s | _ => last ifb 0 + 1 end.
  End FixedDice.

  Lemma step_diceinit : forall dice pc live blocks h j,
    instr_at pc (I OpDiceInit ONil) -> zlen live < 1000 ->
    steps (MD dice pc live blocks h j) (MD (dstate0 :: dice) (pc + 1) live blocks h (counted j)).
  Proof.
    intros dice pc live blocks h j Hi Htop.
    one_step Hi Htop. cbn [step i_op i_arg CompileProofs.M m_fr m_w fr_dice]. eq_m.
  Qed.

  Lemma step_settimes_ok : forall dice pc t live blocks h j,
    0 < t -> instr_at pc (I OpDiceSetTimes ONil) -> zlen (VInt t :: live) < 1000 ->
    steps (MD (dstate0 :: dice) pc (VInt t :: live) blocks h j)
          (MD (dtimes t :: dice) (pc + 1) live blocks h (popped (VInt t) (zlen live) j)).
  Proof.
    intros dice pc t live blocks h j Ht Hi Htop.
    one_step Hi Htop.
    cbn [step i_op i_arg CompileProofs.M m_fr m_w fr_dice need_dice with_pop pop fr_live]. simp_m.
    (replace (t <=? 0) with false by (symmetry; apply Z.leb_gt; lia)).
    unfold upd_dice. simp_m. unfold CompileProofs.popped, dtimes, dstate0. cbn [d_keep d_low d_high d_min d_max]. eq_m.
  Qed.

  Lemma step_settimes_bad : forall dice pc a va live blocks h j env,
    arel h a va -> (forall t, a = DvInt t -> t <= 0) -> erel h env (get_map attrs h) ->
    instr_at pc (I OpDiceSetTimes ONil) -> zlen (va :: live) < 1000 ->
    failsR (MD (dstate0 :: dice) pc (va :: live) blocks h j) EDice env.
  Proof.
    intros dice pc a va live blocks h j env Ha Hbad Henv Hi Htop.
    eapply ((failsR_now (dstate0 :: dice)) _ _ _ _ _ _ _ _ 0%nat Hi Htop Henv). eexists. intros fuel _.
    cbn [step i_op i_arg CompileProofs.M m_fr m_w fr_dice need_dice with_pop pop fr_live]. simp_m.
    destruct Ha; try reflexivity.
    (replace (z <=? 0) with true by (symmetry; apply Z.leb_le; apply Hbad; reflexivity)). reflexivity.
  Qed.

  Lemma step_dice : forall dice pc t b vb live blocks h j env,
    D -> 0 < t -> arel h b vb -> erel h env (get_map attrs h) ->
    instr_at pc (I OpDice ONil) -> zlen (vb :: live) < 1000 ->
    reach h (MD (dtimes t :: dice) pc (vb :: live) blocks h j) (lift_b (roll_sem (e_cfg E) t b) env)
          (fun vv h' j' => MD dice (pc + 1) (vv :: live) blocks h' j').
  Proof.
    intros dice pc t b vb live blocks h j env Hroll Ht Hb Henv Hi Htop.
    assert (Hl : zlen live < 999) by (rewrite zlen_cons in Htop; lia).
    unfold roll_sem.
    destruct Hb as [s|s| |l id Hid HF]; cbn [lift_b reach];
      try (eapply ((failsR_now (dtimes t :: dice)) _ _ _ _ _ _ _ _ 0%nat Hi Htop Henv); eexists; intros fuel _;
           cbn [step i_op i_arg CompileProofs.M m_fr m_w fr_dice with_pop pop fr_live]; simp_m; reflexivity).
    destruct (s <=? 0) eqn:Es; cbn [lift_b reach].
    { eapply ((failsR_now (dtimes t :: dice)) _ _ _ _ _ _ _ _ 0%nat Hi Htop Henv). eexists. intros fuel _.
      cbn [step i_op i_arg CompileProofs.M m_fr m_w fr_dice with_pop pop fr_live]. simp_m. rewrite Es. reflexivity. }
    apply Z.leb_gt in Es.
    unfold dice_sem. destruct (roll_mode (e_cfg E) =? 0) eqn:Em; [exact Logic.I|]. apply Z.eqb_neq in Em.
    unfold dice_cap_d. destruct (100000 <? t) eqn:Ecap; [exact Logic.I|].
    destruct (Hroll t s Em ltac:(lia) ltac:(lia)) as [num [txt Hnum]].
    rewrite Hnum. cbn [lift_b reach].
    exists (VInt num), h,
           {| v_dead := v_dead (counted j); v_last := LSlot (zlen live + 1 - 1);
              v_details := match v_details (counted j) with [] => [(0, 0)] | _ => v_details (counted j) end;
              v_ops := fst (ops_add (e_cfg E) (v_ops (counted j)) t) |}.
    split; [|splits; auto using heap_le_refl; constructor].
    one_stepsK Hi Htop.
    cbn [step i_op i_arg CompileProofs.M m_fr m_w fr_dice with_pop pop fr_live]. simp_m.
    (replace (s <=? 0) with false by (symmetry; apply Z.leb_gt; lia)).
    cbn [dtimes d_keep d_low d_high d_times d_min d_max Z.eqb orb andb].
    unfold add_ops. cbn [w_self w_chain hd c_ops].
    pose proof (ops_not_over E Hlim (v_ops (counted j)) t) as Hover.
    destruct (ops_add (e_cfg E) (v_ops (counted j)) t) as [ops' over] eqn:Eo. cbn [snd fst] in *. subst over.
    unfold dice_cap. rewrite Ecap. unfold w_set_self_ops. cbn [w_chain]. unfold w_set_chain. cbn [w_pcg w_heap w_st w_chain c_attrs].
    rewrite Hnum. unfold dice_result, last_detail. simp_m.
    destruct (v_details (counted j)) eqn:Ed; simp_m; unfold do_push, push; simp_m; rewrite zlen_cons;
      rewrite leb_size by (unfold stack_size; lia);
      eq_m.
  Qed.

  Definition gexpr_ok (e : expr) : Prop :=
    forall dice, gexpr D e -> forall env pc pc' live blocks h j,
      code_at pc (compile_expr e) -> pc' = pc + zlen (compile_expr e) ->
      erel h env (get_map attrs h) -> zlen live + gneed e <= 999 ->
      reach h (MD dice pc live blocks h j) (dexpr (e_cfg E) e env) (fun vv h' j' => MD dice pc' (vv :: live) blocks h' j').

  (* the same, and on scalars (sc = true: a scalar expression, scalar variables) no fuel threshold and scalar results *)
  Definition gexpr_okS (e : expr) : Prop :=
    forall sc dice, gexpr D e -> forall env pc pc' live blocks h j,
      code_at pc (compile_expr e) -> pc' = pc + zlen (compile_expr e) ->
      erel h env (get_map attrs h) -> zlen live + gneed e <= 999 -> (sc = true -> core_expr e /\ scalar_env env) ->
      reachS sc h (MD dice pc live blocks h j) (dexpr (e_cfg E) e env) (fun vv h' j' => MD dice pc' (vv :: live) blocks h' j').
  Lemma okS_ok : forall e, gexpr_okS e -> gexpr_ok e.
  Proof.
    intros e H dice Hc env pc pc' live blocks h j Hat Hpc Henv Hneed.
    eapply (reachS_reach false). apply H; try assumption. discriminate.
  Qed.
  Lemma reachS_ret : forall sc h0 dice pc pc' live blocks h v vv env j,
    pc = pc' -> arel h v vv -> erel h env (get_map attrs h) -> heap_le h0 h -> (sc = true -> scalar v /\ scalar_env env) ->
    reachS sc h0 (MD dice pc (vv :: live) blocks h j) (EV v env) (fun vv h' j' => MD dice pc' (vv :: live) blocks h' j').
  Proof.
    intros sc h0 dice pc pc' live blocks h v vv env j -> Hv He Hle Hs. exists 0%nat. split.
    - exists vv, h, j. splits; try assumption. exists 0%nat. reflexivity.
    - intros X. split; [reflexivity|exact (Hs X)].
  Qed.
  Lemma reachS_at : forall sc h0 m r dice pc pc' live blocks,
    reachS sc h0 m r (fun vv h' j' => MD dice pc (vv :: live) blocks h' j') -> pc = pc' ->
    reachS sc h0 m r (fun vv h' j' => MD dice pc' (vv :: live) blocks h' j').
  Proof. intros; subst; assumption. Qed.
  Lemma scalar_depth : forall a, scalar a -> dv_depth a = 0%nat.
  Proof. intros [] H; try reflexivity; contradiction. Qed.

  Lemma items_correct : forall l, Forall gexpr_okS l -> gitems D l ->
    forall sc, (sc = true -> False) -> forall dice env pc pc' live blocks h j acc vacc n,
      code_at pc (citems l ++ [I OpPushArr (OInt n)]) -> pc' = pc + zlen (citems l) + 1 -> n = zlen vacc + zlen l ->
      erel h env (get_map attrs h) -> Forall2 (arel h) acc vacc -> zlen (vacc ++ live) + gneed_items l <= 999 ->
      reachS sc h (MD dice pc (vacc ++ live) blocks h j) (ditems (e_cfg E) l env acc) (fun vv h' j' => MD dice pc' (vv :: live) blocks h' j').
  Proof.
    intros l HF. induction HF as [|x r Hx Hr IH]; intros Hok sc Hno dice env pc pc' live blocks h j acc vacc n Hat -> -> Henv Hacc Hneed;
      cbn [ditems citems gneed_items gitems app] in *.
    - rewrite zlen_nil, !Z.add_0_r in *.
      destruct (step_pusharr dice pc vacc live blocks h j (code_at_head _ _ _ _ Hat) ltac:(lia)) as [j2 Hj2].
      eapply reachS_steps; [exact Hj2|].
      apply reachS_ret; [lia| |exact (erel_mono _ _ _ _ (heap_le_alloc _ h) Henv)|apply heap_le_alloc|intros X; destruct (Hno X)].
      constructor; [unfold alloc_arr; cbn [snd h_next]; lia|].
      rewrite get_arr_alloc_new. apply Forall2_rev. eapply Forall2_arel_mono; [apply heap_le_alloc|exact Hacc].
    - destruct Hok as [Hokx Hokr]. rewrite <- app_assoc in Hat.
      eapply reachS_bind; [apply (Hx sc dice Hokx env pc _ (vacc ++ live) blocks h j (code_at_app_l _ _ _ _ Hat) eq_refl Henv); [lia|intros X; destruct (Hno X)]|].
      intros v env1 vv h1 j1 Hv Henv1 Hle _.
      apply (IH Hokr sc Hno dice env1 _ _ live blocks h1 j1 (v :: acc) (vv :: vacc) _ (code_at_app_r _ _ _ _ Hat)); try pcfix; try assumption.
      + constructor; [exact Hv|eapply Forall2_arel_mono; eassumption].
      + cbn [app]. rewrite zlen_cons in *. lia.
  Qed.

  Lemma two_operands : forall e1 e2 ins (sem : dv -> dv -> bres), gexpr_okS e1 -> gexpr_okS e2 ->
    (forall dice pc a b va vb live blocks h j env,
       arel h a va -> arel h b vb -> erel h env (get_map attrs h) -> instr_at pc ins -> zlen (vb :: va :: live) < 1000 ->
       reach h (MD dice pc (vb :: va :: live) blocks h j) (lift_b (sem a b) env)
             (fun vv h' j' => MD dice (pc + 1) (vv :: live) blocks h' j')) ->
    forall sc, (sc = true -> False) -> forall dice, gexpr D e1 -> gexpr D e2 -> forall env pc live blocks h j,
      code_at pc (compile_expr e1 ++ compile_expr e2 ++ [ins]) ->
      erel h env (get_map attrs h) -> zlen live + Z.max (gneed e1) (1 + gneed e2) <= 999 ->
      reachS sc h (MD dice pc live blocks h j)
            (match dexpr (e_cfg E) e1 env with
             | EV a env1 => match dexpr (e_cfg E) e2 env1 with EV b env2 => lift_b (sem a b) env2 | x => x end
             | x => x
             end)
            (fun vv h' j' => MD dice (pc + zlen (compile_expr e1 ++ compile_expr e2 ++ [ins])) (vv :: live) blocks h' j').
  Proof.
    intros e1 e2 ins sem IHe1 IHe2 Hstep sc Hno dice Hc1 Hc2 env pc live blocks h j Hat Henv Hneed.
    pose proof (code_at_app_r _ _ _ _ Hat) as Hat2.
    eapply reachS_bind; [apply (IHe1 sc dice Hc1 env pc _ live blocks h j (code_at_app_l _ _ _ _ Hat) eq_refl Henv); [lia|intros X; destruct (Hno X)]|].
    intros a env1 va h1 j1 Ha Henv1 _ _.
    eapply reachS_bind; [apply (IHe2 sc dice Hc2 env1 _ _ (va :: live) blocks h1 j1 (code_at_app_l _ _ _ _ Hat2) eq_refl Henv1);
                         [rewrite zlen_cons; lia|intros X; destruct (Hno X)]|].
    intros b env2 vb h2 j2 Hb Henv2 Hle2 _.
    eapply reachS_at; [apply reach_reachS; [exact Hno|]; apply Hstep; try eassumption; [exact (arel_mono _ _ _ _ Hle2 Ha)|exact (code_at_head _ _ _ _ (code_at_app_r _ _ _ _ Hat2))|]|pcfix].
    rewrite !zlen_cons. pose proof (gneed_pos e2). lia.
  Qed.

  Lemma roll_correct : forall e1 e2, gexpr_okS e1 -> gexpr_okS e2 -> forall sc, (sc = true -> False) -> forall dice, gexpr D (ERoll e1 e2) ->
    forall env pc live blocks h j, code_at pc (compile_expr (ERoll e1 e2)) -> erel h env (get_map attrs h) ->
    zlen live + gneed (ERoll e1 e2) <= 999 ->
    reachS sc h (MD dice pc live blocks h j) (dexpr (e_cfg E) (ERoll e1 e2) env)
           (fun vv h' j' => MD dice (pc + zlen (compile_expr (ERoll e1 e2))) (vv :: live) blocks h' j').
  Proof.
    intros e1 e2 IHe1 IHe2 sc Hno dice Hcore env pc live blocks h j Hat Henv Hneed; cbn [gexpr] in Hcore.
    rewrite dexpr_roll. cbn [compile_expr gneed] in *. destruct Hcore as [Hroll [Hc1 Hc2]].
    set (cx := compile_expr e1) in *. set (cy := compile_expr e2) in *.
    pose proof (code_at_app_r _ _ _ _ Hat) as Hat2. cbn [app] in Hat2.    (* dice.init :: dice.setTimes :: cy ++ [mark.detail; dice] *)
    pose proof (code_at_tail _ _ _ _ Hat2) as Hat3.
    pose proof (code_at_head _ _ _ _ Hat3) as Hi2. pose proof (code_at_tail _ _ _ _ Hat3) as Hat4.
    pose proof (gneed_pos e1) as Hp1. pose proof (gneed_pos e2) as Hp2.
    eapply reachS_bind; [apply (IHe1 sc dice Hc1 env pc _ live blocks h j (code_at_app_l _ _ _ _ Hat) eq_refl Henv); [lia|intros X; destruct (Hno X)]|].
    intros a env1 va h1 j1 Ha Henv1 _ _.
    assert (Hb1 : zlen (va :: live) < 1000) by (rewrite zlen_cons; lia).
    eapply reachS_steps; [apply (step_diceinit dice (pc + zlen cx) (va :: live) blocks h1 j1 (code_at_head _ _ _ _ Hat2) Hb1)|].
    (* the first operand is not a positive int: EDice, the second operand is not evaluated *)
    assert (Hbadx : (forall t, a = DvInt t -> t <= 0) ->
                    failsR (MD (dstate0 :: dice) (pc + zlen cx + 1) (va :: live) blocks h1 (counted j1)) EDice env1).
    { intros Hbad. exact (step_settimes_bad dice (pc + zlen cx + 1) a va live blocks h1 (counted j1) env1 Ha Hbad Henv1 Hi2 Hb1). }
    destruct a as [t| | |]; try (apply reach_reachS; [exact Hno|]; apply Hbadx; intros; discriminate).
    destruct (t <=? 0) eqn:Et.
    { apply reach_reachS; [exact Hno|]. apply Hbadx. intros t' Ht'. inversion Ht'; subst. apply Z.leb_le; exact Et. }
    apply Z.leb_gt in Et. inversion Ha; subst va.
    eapply reachS_steps; [apply (step_settimes_ok dice (pc + zlen cx + 1) t live blocks h1 (counted j1) Et Hi2 Hb1)|].
    (* the second operand runs with the new dice state open, and gives it back *)
    eapply reachS_bind; [apply (IHe2 sc (dtimes t :: dice) Hc2 env1 _ _ live blocks h1 _ (code_at_app_l _ _ _ _ Hat4) eq_refl Henv1); [lia|intros X; destruct (Hno X)]|].
    intros b env2 vb h2 j2 Hb Henv2 _ _.
    pose proof (code_at_app_r _ _ _ _ Hat4) as Hat5.                      (* [mark.detail; dice] *)
    pose proof (code_at_head _ _ _ _ (code_at_tail _ _ _ _ Hat5)) as Hi4.
    assert (Hb2 : zlen (vb :: live) < 1000) by (rewrite zlen_cons; lia).
    destruct ((cp step_mark (dtimes t :: dice)) (pc + zlen cx + 1 + 1 + zlen cy) (vb :: live) blocks h2 j2 0 0 (code_at_head _ _ _ _ Hat5) Hb2) as [j3 Hj3].
    eapply reachS_steps; [exact Hj3|].
    eapply reachS_at; [apply reach_reachS; [exact Hno|]; apply step_dice; assumption|pcfix].
  Qed.

  Lemma lit_correctS : forall e ins v dvv, compile_expr e = [ins] -> gneed e = 1 ->
    (forall env, dexpr (e_cfg E) e env = EV dvv env) ->
    (forall call f m, step call f E ins m = do_push v (m_fr m) (m_w m)) -> (forall h, arel h dvv v) -> scalar dvv -> gexpr_okS e.
  Proof.
    intros e ins v dvv Hc Hnd Hd Hs Hv Hsv sc dice _ env pc pc' live blocks h j Hat -> Henv Hneed Hsc.
    rewrite Hd, Hc in *.
    destruct ((cp step_push dice) pc live blocks h j ins v Hs (code_at_head _ _ _ _ Hat)) as [j' Hj]; [lia|].
    eapply reachS_steps; [exact Hj|]. apply reachS_ret; auto using heap_le_refl. intros X. split; [exact Hsv|exact (proj2 (Hsc X))].
  Qed.

  Lemma gexpr_correctS : forall e, gexpr_okS e.
  Proof.
    induction e using expr_ind'; try (eapply lit_correctS; try reflexivity; intros; try constructor; exact Logic.I);
      intros sc dice Hcore env pc pc' live blocks h j Hat Hpc' Henv Hneed Hsc; cbn [gexpr] in Hcore; cbn [core_expr] in Hsc.
    - (* EVar *)
      subst pc'. cbn [dexpr compile_expr gneed] in *.
      pose proof (code_at_head _ _ _ _ (code_at_tail _ _ _ _ Hat)) as Hi2.
      destruct ((cp step_mark dice) pc live blocks h j 0 0 (code_at_head _ _ _ _ Hat)) as [j1 Hj1]; [lia|].
      eapply reachS_steps; [exact Hj1|].
      eapply reachS_at; [eapply reachS_of; [apply (step_ldd dice); try eassumption; lia|]|pcfix].
      intros X. destruct (Hsc X) as [_ Hse]. split; [reflexivity|split; [apply dlookup_scalar|]; exact Hse].
    - (* EAssign *)
      subst pc'. cbn [dexpr compile_expr gneed] in *.
      eapply reachS_bind; [exact (IHe sc dice Hcore env pc _ live blocks h j (code_at_app_l _ _ _ _ Hat) eq_refl Henv Hneed Hsc)|].
      intros v env1 vv h1 j1 Hv Henv1 _ Hs1.
      destruct ((cp step_store dice) (pc + zlen (compile_expr e)) vv live blocks h1 j1 x (code_at_head _ _ _ _ (code_at_app_r _ _ _ _ Hat))) as [j2 Hj2].
      { rewrite zlen_cons. pose proof (gneed_pos e). lia. }
      eapply reachS_steps; [exact Hj2|].
      pose proof (heap_le_set_map attrs (mset x vv (get_map attrs h1)) h1) as Hle2.
      apply reachS_ret; [pcfix|eapply arel_mono; eassumption| |exact Hle2|].
      + rewrite get_map_set_map. eapply erel_mono; [exact Hle2|]. apply erel_set; assumption.
      + intros X. destruct (Hs1 X). split; [|apply dset_scalar]; assumption.
    - (* EUn *)
      subst pc'. cbn [dexpr compile_expr gneed] in *.
      eapply reachS_bind; [exact (IHe sc dice Hcore env pc _ live blocks h j (code_at_app_l _ _ _ _ Hat) eq_refl Henv Hneed Hsc)|].
      intros v env1 vv h1 j1 Hv Henv1 _ Hs1.
      pose proof (code_at_head _ _ _ _ (code_at_app_r _ _ _ _ Hat)) as Hi.
      eapply reachS_at; [eapply reachS_of; [apply (step_unary dice); try eassumption|]|pcfix].
      + rewrite zlen_cons. pose proof (gneed_pos e). lia.
      + intros X. split; [reflexivity|]. apply sc_lift; [exact (proj2 (Hs1 X))|apply un_sem_scalar].
    - (* EBin *)
      subst pc'. cbn [dexpr compile_expr gneed] in *. destruct Hcore as [Hc1 Hc2]. pose proof (code_at_app_r _ _ _ _ Hat) as Hat2.
      eapply reachS_bind; [apply (IHe1 sc dice Hc1 env pc _ live blocks h j (code_at_app_l _ _ _ _ Hat) eq_refl Henv); [lia|]|].
      { intros X. destruct (Hsc X) as [[X1 _] X2]. split; assumption. }
      intros a env1 va h1 j1 Ha Henv1 _ Hs1.
      eapply reachS_bind; [apply (IHe2 sc dice Hc2 env1 _ _ (va :: live) blocks h1 j1 (code_at_app_l _ _ _ _ Hat2) eq_refl Henv1);
                           [rewrite zlen_cons; lia|]|].
      { intros X. destruct (Hsc X) as [[_ X1] _]. split; [exact X1|exact (proj2 (Hs1 X))]. }
      intros b env2 vb h2 j2 Hb Henv2 Hle2 Hs2.
      pose proof (code_at_head _ _ _ _ (code_at_app_r _ _ _ _ Hat2)) as Hi.
      eapply reachS_at; [eapply reachS_of; [apply (step_binop_all dice); try eassumption; [exact (arel_mono _ _ _ _ Hle2 Ha)|]|]|pcfix].
      + rewrite !zlen_cons. pose proof (gneed_pos e2). lia.
      + intros X. split; [apply scalar_depth; exact (proj1 (Hs1 X))|].
        apply sc_lift; [exact (proj2 (Hs2 X))|intros v; apply bin_sem_scalar; [exact (proj1 (Hs1 X))|exact (proj1 (Hs2 X))]].
    - (* EOr *)
      subst pc'. cbn [dexpr compile_expr gneed] in *. destruct Hcore as [Hc1 Hc2].
      set (cl := compile_expr e1) in *. set (cr := compile_expr e2) in *.
      pose proof (code_at_app_r _ _ _ _ Hat) as Hat2. cbn [app] in Hat2.     (* je.dup :: cr ++ [je.dup 1; push.last] *)
      pose proof (code_at_head _ _ _ _ Hat2) as Hi1. pose proof (code_at_tail _ _ _ _ Hat2) as Hat3.
      pose proof (gneed_pos e1) as Hp1. pose proof (gneed_pos e2) as Hp2.
      eapply reachS_bind; [apply (IHe1 sc dice Hc1 env pc _ live blocks h j (code_at_app_l _ _ _ _ Hat) eq_refl Henv); [lia|]|].
      { intros X. destruct (Hsc X) as [[X1 _] X2]. split; assumption. }
      intros a env1 va h1 j1 Ha Henv1 _ Hs1.
      pose proof (arel_truthy (e_fn E) _ _ _ Ha) as Ta. destruct (truthy a).
      + destruct ((cp step_jedup_true dice) (pc + zlen cl) va live blocks h1 j1 _ Ta Hi1) as [j2 Hj2]; [rewrite zlen_cons; lia|].
        eapply reachS_steps; [exact Hj2|].
        apply reachS_ret; auto using heap_le_refl; pcfix.
      + eapply reachS_steps.
        { apply ((cp step_jedup_false dice) (pc + zlen cl) va live blocks h1 j1 _ Ta Hi1). rewrite zlen_cons; lia. }
        eapply reachS_then; [apply (IHe2 sc dice Hc2 env1 _ _ live blocks h1 _ (code_at_app_l _ _ _ _ Hat3) eq_refl Henv1); [lia|]|].
        { intros X. destruct (Hsc X) as [[_ X1] _]. split; [exact X1|exact (proj2 (Hs1 X))]. }
        intros b env2 vb h2 j2 Hb Henv2 _ Hs2.
        pose proof (code_at_app_r _ _ _ _ Hat3) as Hat4. pose proof (code_at_head _ _ _ _ Hat4) as Hi2.
        pose proof (arel_truthy (e_fn E) _ _ _ Hb) as Tb. destruct (truthy b).
        * destruct ((cp step_jedup_true dice) (pc + zlen cl + 1 + zlen cr) vb live blocks h2 j2 _ Tb Hi2) as [j3 Hj3];
            [rewrite zlen_cons; lia|].
          eapply reachS_steps; [exact Hj3|].
          apply reachS_ret; auto using heap_le_refl; pcfix.
        * eapply reachS_steps.
          { apply ((cp step_jedup_false dice) (pc + zlen cl + 1 + zlen cr) vb live blocks h2 j2 _ Tb Hi2). rewrite zlen_cons; lia. }
          destruct ((cp step_pushlast dice) (pc + zlen cl + 1 + zlen cr + 1) vb live blocks h2 j2 (code_at_head _ _ _ _ (code_at_tail _ _ _ _ Hat4))) as [j4 Hj4]; [lia|].
          eapply reachS_steps; [exact Hj4|].
          apply reachS_ret; auto using heap_le_refl; pcfix.
    - (* ETern *)
      subst pc'. cbn [dexpr compile_expr gneed] in *. destruct Hcore as [Hc1 [Hc2 Hc3]].
      set (cc := compile_expr e1) in *. set (ca := compile_expr e2) in *. set (cb := compile_expr e3) in *.
      pose proof (code_at_app_r _ _ _ _ Hat) as Hat2. cbn [app] in Hat2.     (* jne :: ca ++ jmp :: cb *)
      pose proof (code_at_tail _ _ _ _ Hat2) as Hat3.
      pose proof (gneed_pos e1) as Hp1. pose proof (gneed_pos e2) as Hp2.
      eapply reachS_bind; [apply (IHe1 sc dice Hc1 env pc _ live blocks h j (code_at_app_l _ _ _ _ Hat) eq_refl Henv); [lia|]|].
      { intros X. destruct (Hsc X) as [[X1 _] X2]. split; assumption. }
      intros vc env1 vvc h1 j1 Hvc Henv1 _ Hs1.
      eapply reachS_steps.
      { apply ((cp step_jne dice) (pc + zlen cc) vvc live blocks h1 j1 _ (code_at_head _ _ _ _ Hat2)). rewrite zlen_cons; lia. }
      rewrite (arel_truthy (e_fn E) _ _ _ Hvc). destruct (truthy vc).
      + eapply reachS_then; [apply (IHe2 sc dice Hc2 env1 _ _ live blocks h1 _ (code_at_app_l _ _ _ _ Hat3) eq_refl Henv1); [lia|]|].
        { intros X. destruct (Hsc X) as [[_ [X1 _]] _]. split; [exact X1|exact (proj2 (Hs1 X))]. }
        intros va env2 vva h2 j2 Hva Henv2 _ Hs2.
        eapply reachS_steps.
        { apply ((cp step_jmp dice) (pc + zlen cc + 1 + zlen ca) (vva :: live) blocks h2 j2 _ (code_at_head _ _ _ _ (code_at_app_r _ _ _ _ Hat3))). rewrite zlen_cons; lia. }
        apply reachS_ret; auto using heap_le_refl; pcfix.
      + apply (IHe3 sc dice Hc3 env1 (pc + zlen cc + (zlen ca + 1) + 1) _ live blocks h1); try assumption; try (fold cb; pcfix).
        * replace (pc + zlen cc + (zlen ca + 1) + 1) with (pc + zlen cc + 1 + zlen ca + 1) by lia.
          exact (code_at_tail _ _ _ _ (code_at_app_r _ _ _ _ Hat3)).
        * intros X. destruct (Hsc X) as [[_ [_ X1]] _]. split; [exact X1|exact (proj2 (Hs1 X))].
    - (* EArr *)
      assert (Hno : sc = true -> False) by (intros X; destruct (proj1 (Hsc X))). subst pc'.
      change (gitems D l) in Hcore. rewrite dexpr_arr. rewrite compile_arr in *. rewrite gneed_arr in Hneed.
      apply (items_correct l H Hcore sc Hno dice env pc _ live blocks h j [] [] (zlen l) Hat); try assumption; try pcfix. constructor.
    - (* EIdx *)
      assert (Hno : sc = true -> False) by (intros X; destruct (proj1 (Hsc X))). subst pc'. destruct Hcore as [Hc1 Hc2].
      exact (two_operands e1 e2 _ index_sem IHe1 IHe2 step_itemget sc Hno dice Hc1 Hc2 env pc live blocks h j Hat Henv Hneed).
    - (* ERoll *)
      assert (Hno : sc = true -> False) by (intros X; destruct (proj1 (Hsc X))). subst pc'.
      exact (roll_correct e1 e2 IHe1 IHe2 sc Hno dice Hcore env pc live blocks h j Hat Henv Hneed).
  Qed.

  Lemma gexpr_correct : forall e, gexpr_ok e.
  Proof. intros e. apply okS_ok, gexpr_correctS. Qed.

  Section Stmts.
  Variable dice : list dstate.
  Notation M := (MD dice).

  (* what a statement does inside a loop body: d `if` blocks (saved heights ifb) are open between the loop and the
     statement, lb are the blocks from the loop's own block outwards, base is the operand stack at the loop's
     block.push; pc - bo is the loop condition, pc + |s| + ao the loop's block.pop *)
  Definition gpost (d : nat) (bo ao : Z) (ifb lb : list Z) (base : list value) (fuel : nat) (s : stmt) (env : denv)
             (pc : Z) (live : list value) (h : heap) (j : vol) : Prop :=
    match dstmt (e_cfg E) fuel s env with
    | SNorm v env' =>
      exists h' j' junk,
        stepsK (M pc live (ifb ++ lb) h j) (M (pc + zlen (compile_stmt d bo ao s)) (junk ++ live) (ifb ++ lb) h' j')
        /\ erel h' env' (get_map attrs h') /\ heap_le h h' /\ zlen junk <= wleaves s
        /\ match v with
           | Some x => exists vx junk', junk = vx :: junk' /\ arel h' x vx
           | None => junk = [] /\ h' = h /\ j' = j
           end
    | SBrk env' =>
      exists h' j' stk,
        stepsK (M pc live (ifb ++ lb) h j) (M (pc + zlen (compile_stmt d bo ao s) + ao) stk lb h' j')
        /\ erel h' env' (get_map attrs h') /\ heap_le h h' /\ (exists junk, stk = junk ++ base)
        /\ zlen stk <= zlen live + gwneed (Z.of_nat fuel) s
    | SCont env' =>
      exists h' j' stk,
        stepsK (M pc live (ifb ++ lb) h j) (M (pc - bo) stk lb h' j')
        /\ erel h' env' (get_map attrs h') /\ heap_le h h' /\ (exists junk, stk = junk ++ base)
        /\ zlen stk <= cont_top ifb live s
    | SErrR c env' => failsR (M pc live (ifb ++ lb) h j) c env'
    | _ => True
    end.

  (* The iterations of `while c { s }` from the loop head pc (the code of the condition, the loop's block open) to the
     instruction after its block.pop.  Every iteration leaves the slots of the body on the stack (junk grows by at most
     wleaves s), which is why the room asked for is proportional to the number n of iterations still allowed.  What the
     body does is a hypothesis: the caller has it by induction on the statement. *)
  Lemma loop_correct : forall c s fuel blocks live pc,
    let cc := compile_expr c in let B := compile_stmt 0 (zlen cc + 1) 1 s in
    let lb' := zlen live :: blocks in let N := Z.of_nat fuel in
    gexpr D c ->
    code_at pc (cc ++ I OpJne (OInt (zlen B + 1)) :: B ++ [I OpJmp (OInt (- (zlen cc + 1 + zlen B + 1))); I OpBlockPop ONil]) ->
    zlen live + (N * wleaves s + Z.max 1 (Z.max (gneed c) (gwneed N s))) <= 999 ->
    (forall env1 junk h1 j1, erel h1 env1 (get_map attrs h1) -> zlen (junk ++ live) + gwneed N s <= 999 ->
       gpost 0 (zlen cc + 1) 1 [] lb' live fuel s env1 (pc + zlen cc + 1) (junk ++ live) h1 j1) ->
    forall n env0 junk h0 j0, erel h0 env0 (get_map attrs h0) -> zlen junk + Z.of_nat n * wleaves s <= N * wleaves s ->
      match dloop (e_cfg E) fuel c s n env0 with
      | SNorm v env' =>
        v = Some DvNull /\ exists h' j',
          stepsK (M pc (junk ++ live) lb' h0 j0) (M (pc + zlen cc + 1 + zlen B + 1 + 1) (VNull :: live) blocks h' j')
          /\ erel h' env' (get_map attrs h') /\ heap_le h0 h'
      | SErrR k env' => failsR (M pc (junk ++ live) lb' h0 j0) k env'
      | SBrk _ | SCont _ => False
      | SFuelR | SUnsupR _ => True
      end.
  Proof.
    intros c s fuel blocks live pc cc B lb' N Hc0 Hat Hneed Hbody.
    set (wl := wleaves s) in *. pose proof (wleaves_nonneg s) as Hwl. fold wl in Hwl.
    assert (HN : 0 <= N) by (unfold N; lia).
    pose proof (gneed_pos c) as Hnc. pose proof (gwneed_nonneg N s HN) as Hns.
    pose proof (code_at_app_r _ _ _ _ Hat) as Hat2.                       (* jne :: B ++ [jmp; block.pop] *)
    pose proof (code_at_app_r _ _ _ _ (code_at_tail _ _ _ _ Hat2)) as Hat4.
    pose proof (code_at_head _ _ _ _ (code_at_tail _ _ _ _ Hat4)) as Hi5.
    set (X := pc + zlen cc + 1 + zlen B + 1) in *.
    induction n as [|n IHn]; intros env0 junk h0 j0 Henv0 Hjunk; cbn [dloop]; [exact Logic.I|].
    rewrite Nat2Z.inj_succ, Z.mul_succ_l in Hjunk.
    assert (Hn0wl : 0 <= Z.of_nat n * wl) by nia.
    pose proof (zlen_nonneg _ junk) as Hjn.
    pose proof (gexpr_correct c dice Hc0 env0 pc _ (junk ++ live) lb' h0 j0 (code_at_app_l _ _ _ _ Hat) eq_refl Henv0
                              ltac:(rewrite zlen_app; lia)) as IH0. unfold reach in IH0.
    destruct (dexpr (e_cfg E) c env0) as [vc env1|k env1|w]; [|exact IH0|exact Logic.I].
    destruct IH0 as [vvc [h1 [j1 [Hst0 [Hvc [Henv1 Hle0]]]]]]. fold cc in Hst0.
    assert (Hl1 : zlen (vvc :: junk ++ live) < 1000) by (rewrite zlen_cons, zlen_app; lia).
    pose proof (steps_stepsK _ _ ((cp step_jne dice) (pc + zlen cc) vvc (junk ++ live) lb' h1 j1 _ (code_at_head _ _ _ _ Hat2) Hl1)) as Hj.
    rewrite (arel_truthy (e_fn E) _ _ _ Hvc) in Hj.
    set (jj := popped vvc (zlen (junk ++ live)) j1) in *.
    destruct (truthy vc) eqn:Tc.
    - (* one more iteration *)
      pose proof (Hbody env1 junk h1 jj Henv1 ltac:(rewrite zlen_app; lia)) as IHb.
      unfold gpost in IHb. fold B in IHb. fold N in IHb. cbn [app] in IHb.
      destruct (dstmt (e_cfg E) fuel s env1) as [v2 env2|env2|env2|k env2| |w]; try exact Logic.I.
      + (* the body completes: jump back *)
        destruct IHb as [h2 [j2 [junk2 [Hst1 [Henv2 [Hle2 [Hlv _]]]]]]]. fold wl in Hlv.
        pose proof (zlen_nonneg _ junk2) as Hj2n.
        assert (Hl2 : zlen (junk2 ++ junk ++ live) < 1000) by (rewrite !zlen_app; lia).
        pose proof ((cp step_jmp dice) (pc + zlen cc + 1 + zlen B) (junk2 ++ junk ++ live) lb' h2 j2 _ (code_at_head _ _ _ _ Hat4) Hl2) as Hjmp.
        replace (pc + zlen cc + 1 + zlen B + - (zlen cc + 1 + zlen B + 1) + 1) with pc in Hjmp by lia.
        pose proof (IHn env2 (junk2 ++ junk) h2 (counted j2) Henv2 ltac:(rewrite zlen_app; lia)) as Y.
        rewrite <- app_assoc in Y.
        assert (Hpre1 : stepsK (M pc (junk ++ live) lb' h0 j0) (M pc (junk2 ++ junk ++ live) lb' h2 (counted j2))).
        { eapply stepsK_trans; [exact Hst0|]. eapply stepsK_trans; [exact Hj|]. eapply stepsK_trans; [exact Hst1|].
          apply steps_stepsK; exact Hjmp. }
        destruct (dloop (e_cfg E) fuel c s n env2) as [v3 env3|env3|env3|k env3| |w]; try exact Y.
        * destruct Y as [Hv3 [h3 [j3 [Hst3 [Henv3 Hle3]]]]]. split; [exact Hv3|]. exists h3, j3. splits; auto.
          -- eapply stepsK_trans; eassumption.
          -- eapply heap_le_trans; [exact Hle0|]. eapply heap_le_trans; eassumption.
        * eapply stepsK_failsR; eassumption.
      + (* break *)
        destruct IHb as [h2 [j2 [stk [Hst1 [Henv2 [Hle2 [[junkb Hb] Hz]]]]]]]. subst stk.
        rewrite !zlen_app in Hz.
        replace (pc + zlen cc + 1 + zlen B + 1) with X in Hst1 by reflexivity.
        assert (Hlt : zlen (junkb ++ live) < 1000). { rewrite zlen_app. lia. }
        destruct ((cp step_blockpop_lower dice) X junkb live blocks h2 j2 Hi5 Hlt) as [j3 Hpop]. apply steps_stepsK in Hpop.
        split; [reflexivity|]. exists h2, j3. splits; auto.
        * eapply stepsK_trans; [exact Hst0|]. eapply stepsK_trans; [exact Hj|]. eapply stepsK_trans; eassumption.
        * eapply heap_le_trans; eassumption.
      + (* continue *)
        destruct IHb as [h2 [j2 [stk [Hst1 [Henv2 [Hle2 [[junkc Hc] Hz]]]]]]]. subst stk.
        unfold cont_top in Hz. fold wl in Hz. rewrite !zlen_app in Hz.
        replace (pc + zlen cc + 1 - (zlen cc + 1)) with pc in Hst1 by lia.
        pose proof (IHn env2 junkc h2 j2 Henv2 ltac:(lia)) as Y.
        assert (Hpre1 : stepsK (M pc (junk ++ live) lb' h0 j0) (M pc (junkc ++ live) lb' h2 j2)).
        { eapply stepsK_trans; [exact Hst0|]. eapply stepsK_trans; [exact Hj|]. exact Hst1. }
        destruct (dloop (e_cfg E) fuel c s n env2) as [v3 env3|env3|env3|k env3| |w]; try exact Y.
        * destruct Y as [Hv3 [h3 [j3 [Hst3 [Henv3 Hle3]]]]]. split; [exact Hv3|]. exists h3, j3. splits; auto.
          -- eapply stepsK_trans; eassumption.
          -- eapply heap_le_trans; [exact Hle0|]. eapply heap_le_trans; eassumption.
        * eapply stepsK_failsR; eassumption.
      + (* error in the body *)
        eapply stepsK_failsR; [exact Hst0|]. eapply stepsK_failsR; eassumption.
    - (* the condition is false: leave through block.pop *)
      replace (pc + zlen cc + (zlen B + 1) + 1) with X in Hj by (unfold X; lia).
      destruct ((cp step_blockpop_lower dice) X junk live blocks h1 jj Hi5 ltac:(rewrite zlen_app; lia)) as [j3 Hpop]. apply steps_stepsK in Hpop.
      split; [reflexivity|]. exists h1, j3. splits; auto.
      eapply stepsK_trans; [exact Hst0|]. eapply stepsK_trans; eassumption.
  Qed.

  Lemma gstmt_correct : forall s, gstmt D s -> forall d bo ao ifb lb base fuel env pc live h j,
    code_at pc (compile_stmt d bo ao s) -> erel h env (get_map attrs h) ->
    zlen live + gwneed (Z.of_nat fuel) s <= 999 -> zlen (ifb ++ lb) + wbneed s <= 20 ->
    length ifb = d -> (exists pre, live = pre ++ base) -> desc (zlen base) ifb -> head_ok ifb live j ->
    gpost d bo ao ifb lb base fuel s env pc live h j.
  Proof.
    induction s; intros Hcore d bo ao ifb lb base fuel env pc live h j Hat Henv Hneed Hbn Hd Hpre Hdesc Hhead;
      unfold gpost; cbn [gstmt] in Hcore.
    - (* SNop *)
      cbn [dstmt compile_stmt wleaves]. exists h, j, []. rewrite zlen_nil, Z.add_0_r. cbn [app].
      splits; auto using heap_le_refl, stepsK_refl; try lia. rewrite zlen_nil; lia.
    - (* SExpr *)
      cbn [dstmt compile_stmt wleaves gwneed] in *.
      pose proof (gexpr_correct e dice Hcore env pc _ live (ifb ++ lb) h j Hat eq_refl Henv Hneed) as IH. unfold reach in IH.
      destruct (dexpr (e_cfg E) e env) as [v env1|c env1|w]; [|exact IH|exact Logic.I].
      destruct IH as [vv [h1 [j1 [Hst [Hv [Henv1 Hle]]]]]].
      exists h1, j1, [vv]. cbn [app]. splits; auto; try (rewrite zlen_cons, zlen_nil; lia).
      exists vv, []; split; [reflexivity|exact Hv].
    - (* SSeq *)
      cbn [dstmt compile_stmt wleaves gwneed wbneed] in *. destruct Hcore as [Hc1 Hc2].
      set (N := Z.of_nat fuel) in *. assert (HN : 0 <= N) by lia.
      set (ca := compile_stmt d bo (ao + ssize d s2) s1) in *. set (cb := compile_stmt d (bo + ssize d s1) ao s2) in *.
      assert (Hca : zlen ca = ssize d s1) by apply ssize_compile.
      assert (Hcb : zlen cb = ssize d s2) by apply ssize_compile.
      pose proof (wleaves_nonneg s1) as Hw1. pose proof (wleaves_nonneg s2) as Hw2.
      pose proof (gwneed_nonneg N s1 HN) as Hn1. pose proof (gwneed_nonneg N s2 HN) as Hn2.
      pose proof (IHs1 Hc1 d bo (ao + ssize d s2) ifb lb base fuel env pc live h j (code_at_app_l _ _ _ _ Hat) Henv
                       ltac:(fold N; lia) ltac:(lia) Hd Hpre Hdesc Hhead) as IH1.
      unfold gpost in IH1. fold ca in IH1. fold N in IH1.
      destruct (dstmt (e_cfg E) fuel s1 env) as [v1 env1|env1|env1|c env1| |w]; try exact Logic.I.
      + (* s1 completes *)
        destruct IH1 as [h1 [j1 [junk1 [Hst1 [Henv1 [Hle1 [Hl1 Hv1]]]]]]].
        destruct Hpre as [pre Hpre].
        assert (Hhead1 : head_ok ifb (junk1 ++ live) j1).
        { unfold head_ok in *. destruct ifb as [|a r]; [exact Logic.I|]. destruct Hhead as [Hh1 Hh2].
          rewrite zlen_app. pose proof (zlen_nonneg _ junk1). split; [lia|]. intros Ha.
          destruct v1 as [x1|].
          - destruct Hv1 as [vx [junk' [-> _]]]. rewrite zlen_cons in *. pose proof (zlen_nonneg _ junk'). lia.
          - destruct Hv1 as [-> [_ ->]]. apply Hh2. rewrite zlen_nil in Ha. lia. }
        assert (Hpre1 : exists pre1, junk1 ++ live = pre1 ++ base).
        { exists (junk1 ++ pre). rewrite Hpre, app_assoc. reflexivity. }
        pose proof (IHs2 Hc2 d (bo + ssize d s1) ao ifb lb base fuel env1 (pc + zlen ca) (junk1 ++ live) h1 j1
                         (code_at_app_r _ _ _ _ Hat) Henv1 ltac:(fold N; rewrite zlen_app; lia) ltac:(lia) Hd Hpre1 Hdesc Hhead1) as IH2.
        unfold gpost in IH2. fold cb in IH2. fold N in IH2.
        destruct (dstmt (e_cfg E) fuel s2 env1) as [v2 env2|env2|env2|c env2| |w]; try exact Logic.I.
        * destruct IH2 as [h2 [j2 [junk2 [Hst2 [Henv2 [Hle2 [Hl2 Hv2]]]]]]].
          exists h2, j2, (junk2 ++ junk1). rewrite <- app_assoc. splits; auto.
          -- replace (pc + zlen (ca ++ cb)) with (pc + zlen ca + zlen cb) by pcfix. eapply stepsK_trans; eassumption.
          -- eapply heap_le_trans; eassumption.
          -- rewrite zlen_app; lia.
          -- destruct v2 as [x2|].
             ++ destruct Hv2 as [vx [junk' [-> Hx]]]. exists vx, (junk' ++ junk1). split; [reflexivity|exact Hx].
             ++ destruct Hv2 as [-> [-> ->]]. cbn [app]. exact Hv1.
        * destruct IH2 as [h2 [j2 [stk [Hst2 [Henv2 [Hle2 [Hb Hz]]]]]]].
          exists h2, j2, stk. splits; auto.
          -- replace (pc + zlen (ca ++ cb) + ao) with (pc + zlen ca + zlen cb + ao) by pcfix. eapply stepsK_trans; eassumption.
          -- eapply heap_le_trans; eassumption.
          -- rewrite zlen_app in Hz. lia.
        * destruct IH2 as [h2 [j2 [stk [Hst2 [Henv2 [Hle2 [Hb Hz]]]]]]].
          exists h2, j2, stk. splits; auto.
          -- replace (pc - bo) with (pc + zlen ca - (bo + ssize d s1)) by lia. eapply stepsK_trans; eassumption.
          -- eapply heap_le_trans; eassumption.
          -- unfold cont_top in *. destruct ifb; [rewrite zlen_app in Hz; cbn [wleaves]; lia|exact Hz].
        * eapply stepsK_failsR; eassumption.
      + (* s1 breaks *)
        destruct IH1 as [h1 [j1 [stk [Hst1 [Henv1 [Hle1 [Hb Hz]]]]]]].
        exists h1, j1, stk. splits; auto; [|lia].
        replace (pc + zlen (ca ++ cb) + ao) with (pc + zlen ca + (ao + ssize d s2)) by pcfix. exact Hst1.
      + (* s1 continues *)
        destruct IH1 as [h1 [j1 [stk [Hst1 [Henv1 [Hle1 [Hb Hz]]]]]]].
        exists h1, j1, stk. splits; auto.
        unfold cont_top in *. destruct ifb; [cbn [wleaves]; lia|exact Hz].
      + exact IH1.
    - (* SIf *)
      cbn [dstmt compile_stmt wleaves gwneed wbneed] in *. destruct Hcore as [Hc0 [Hc1 Hc2]].
      set (N := Z.of_nat fuel) in *. assert (HN : 0 <= N) by lia.
      set (cc := compile_expr c) in *.
      set (T := compile_stmt (S d) (bo + zlen cc + 2) (ao + 1 + ssize (S d) s2 + 1) s1) in *.
      set (F := compile_stmt (S d) (bo + zlen cc + 2 + ssize (S d) s1 + 1) (ao + 1) s2) in *.
      assert (HT : ssize (S d) s1 = zlen T) by (symmetry; apply ssize_compile).
      assert (HF : ssize (S d) s2 = zlen F) by (symmetry; apply ssize_compile).
      rewrite HT, HF in Hat.
      pose proof (gexpr_correct c dice Hc0 env pc _ live (ifb ++ lb) h j (code_at_app_l _ _ _ _ Hat) eq_refl Henv ltac:(lia)) as IH0. unfold reach in IH0.
      destruct (dexpr (e_cfg E) c env) as [vc env1|k env1|w]; [|exact IH0|exact Logic.I].
      destruct IH0 as [vvc [h1 [j1 [Hst0 [Hvc [Henv1 Hle0]]]]]]. fold cc in Hst0.
      pose proof (code_at_app_r _ _ _ _ Hat) as Hat1. cbn [app] in Hat1.
      pose proof (code_at_tail _ _ _ _ Hat1) as Hat2.
      pose proof (code_at_tail _ _ _ _ Hat2) as Hat3.
      pose proof (gneed_pos c) as Hnc. pose proof (wbneed_nonneg s1) as Hb1. pose proof (wbneed_nonneg s2) as Hb2.
      pose proof (gwneed_nonneg N s1 HN) as Hsn1. pose proof (gwneed_nonneg N s2 HN) as Hsn2.
      assert (Hl1 : zlen (vvc :: live) < 1000) by (rewrite zlen_cons; lia).
      pose proof ((cp step_blockpush dice) (pc + zlen cc) (vvc :: live) (ifb ++ lb) h1 j1 (code_at_head _ _ _ _ Hat1) Hl1 ltac:(lia)) as Hbp.
      rewrite zlen_cons in Hbp.
      pose proof (steps_stepsK _ _ ((cp step_jne dice) (pc + zlen cc + 1) vvc live (zlen live + 1 :: ifb ++ lb) h1 (counted j1) _ (code_at_head _ _ _ _ Hat2) Hl1)) as Hj.
      rewrite (arel_truthy (e_fn E) _ _ _ Hvc) in Hj.
      set (jj := popped vvc (zlen live) (counted j1)) in *.
      assert (Hpre0 : stepsK (M pc live (ifb ++ lb) h j)
                             (M (if truthy vc then pc + zlen cc + 1 + 1 else pc + zlen cc + 1 + (zlen T + 1) + 1) live
                                ((zlen live + 1 :: ifb) ++ lb) h1 jj)).
      { cbn [app]. eapply stepsK_trans; [exact Hst0|]. eapply stepsK_trans; [apply steps_stepsK|]; eassumption. }
      assert (Hblk : zlen ((zlen live + 1 :: ifb) ++ lb) + Z.max (wbneed s1) (wbneed s2) <= 20) by (cbn [app]; rewrite zlen_cons; lia).
      assert (Hd' : length (zlen live + 1 :: ifb) = S d) by (cbn [length]; f_equal; exact Hd).
      assert (Hdesc' : desc (zlen base) (zlen live + 1 :: ifb)).
      { destruct Hpre as [pre Hp]. cbn [desc]. splits; [|destruct ifb as [|b r]; [exact Logic.I|exact (proj1 Hhead)]|exact Hdesc].
        rewrite Hp, zlen_app. pose proof (zlen_nonneg _ pre). lia. }
      assert (Hhead' : head_ok (zlen live + 1 :: ifb) live jj).
      { unfold head_ok. split; [lia|]. intros _. exists vvc. reflexivity. }
      assert (Hend : pc + zlen (cc ++ I OpBlockPush ONil :: I OpJne (OInt (zlen T + 1)) :: T ++ I OpJmp (OInt (zlen F)) :: F ++ [I OpBlockPop ONil])
                     = pc + zlen cc + 2 + zlen T + 1 + zlen F + 1) by pcfix.
      cbn [app]. rewrite HT, HF, Hend.
      pose proof (code_at_app_r _ _ _ _ Hat3) as Hat4.
      pose proof (code_at_tail _ _ _ _ Hat4) as Hat5.
      pose proof (code_at_head _ _ _ _ (code_at_app_r _ _ _ _ Hat5)) as Hi6.
      assert (Hct : forall s', cont_top (zlen live + 1 :: ifb) live s' <= cont_top ifb live (SIf c s1 s2)).
      { intros s'. unfold cont_top. destruct ifb as [|b r]; [cbn [last wleaves]; lia|].
        change (last (zlen live + 1 :: b :: r) 0) with (last (b :: r) 0). lia. }
      (* the branch taken: its offsets to the loop, and the way from its end to block.pop (`jmp |F|`, or nothing) *)
      set (sb := if truthy vc then s1 else s2) in *.
      set (bo' := if truthy vc then bo + zlen cc + 2 else bo + zlen cc + 2 + ssize (S d) s1 + 1).
      set (ao' := if truthy vc then ao + 1 + ssize (S d) s2 + 1 else ao + 1).
      set (pcb := if truthy vc then pc + zlen cc + 1 + 1 else pc + zlen cc + 1 + (zlen T + 1) + 1) in *.
      set (C := compile_stmt (S d) bo' ao' sb).
      set (Ppop := pc + zlen cc + 1 + 1 + zlen T + 1 + zlen F) in *.
      assert (HC : zlen C = if truthy vc then zlen T else zlen F).
      { unfold C, sb. rewrite ssize_compile. destruct (truthy vc); assumption. }
      assert (IHb : gpost (S d) bo' ao' (zlen live + 1 :: ifb) lb base fuel sb env1 pcb live h1 jj).
      { unfold sb, bo', ao', pcb. destruct (truthy vc).
        - apply IHs1; try assumption; [exact (code_at_app_l _ _ _ _ Hat3)|fold N; lia|lia].
        - apply IHs2; try assumption; [|fold N; lia|lia].
          replace (pc + zlen cc + 1 + (zlen T + 1) + 1) with (pc + zlen cc + 1 + 1 + zlen T + 1) by lia.
          exact (code_at_app_l _ _ _ _ Hat5). }
      assert (Hexit : forall stk h2 j2, zlen stk < 1000 -> exists j2',
                stepsK (M (pcb + zlen C) stk (zlen live + 1 :: ifb ++ lb) h2 j2) (M Ppop stk (zlen live + 1 :: ifb ++ lb) h2 j2')
                /\ v_dead j2' = v_dead j2).
      { intros stk h2 j2 Hl2. rewrite HC. unfold pcb, Ppop. destruct (truthy vc).
        - exists (counted j2). split; [|reflexivity]. apply steps_stepsK.
          replace (pc + zlen cc + 1 + 1 + zlen T + 1 + zlen F) with (pc + zlen cc + 1 + 1 + zlen T + zlen F + 1) by lia.
          exact ((cp step_jmp dice) _ stk _ h2 j2 _ (code_at_head _ _ _ _ Hat4) Hl2).
        - exists j2. split; [|reflexivity].
          replace (pc + zlen cc + 1 + (zlen T + 1) + 1 + zlen F) with (pc + zlen cc + 1 + 1 + zlen T + 1 + zlen F) by lia.
          apply stepsK_refl. }
      assert (Hpcs : pcb + zlen C + ao' = Ppop + 1 + ao /\ pcb - bo' = pc - bo /\ gwneed N sb <= Z.max (gwneed N s1) (gwneed N s2)).
      { rewrite HC. unfold pcb, ao', bo', sb, Ppop. destruct (truthy vc); lia. }
      destruct Hpcs as [HpcB [HpcC Hnb]].
      replace (pc + zlen cc + 2 + zlen T + 1 + zlen F + 1) with (Ppop + 1) by (unfold Ppop; lia).
      unfold gpost in IHb. fold C in IHb. fold N in IHb.
      destruct (dstmt (e_cfg E) fuel sb env1) as [v1 env2|env2|env2|k env2| |w]; try exact Logic.I.
      + destruct IHb as [h2 [j2 [junk [Hst1 [Henv2 [Hle2 [Hlv Hv1]]]]]]].
        pose proof (wleaves_le_gwneed N sb HN) as Hls.
        assert (Hl2 : zlen (junk ++ live) < 1000) by (rewrite zlen_app; lia).
        destruct (Hexit (junk ++ live) h2 j2 Hl2) as [j2' [Hex Hdead]].
        (* block.pop: the height was saved after the condition was pushed, one above `live`; exactly one slot y stays *)
        pose proof (zlen_nonneg _ junk) as Hjn.
        destruct (step_blockpop_any dice Ppop (junk ++ live) junk live (zlen live + 1) (ifb ++ lb) h2 j2' eq_refl ltac:(lia)
                    ltac:(rewrite zlen_app; lia)) as [j3 [ys [Hpop Hys]]]; [|lia|lia|exact Hi6|].
        { rewrite zlen_app. intros Hj0. assert (junk = []) as -> by (destruct junk as [|x r]; [reflexivity|pose proof (zlen_nonneg _ r); rewrite zlen_cons in *; lia]).
          exists vvc. rewrite Hdead. destruct v1 as [x|]; [destruct Hv1 as [vx [junk' [Hx _]]]; discriminate|].
          destruct Hv1 as [_ [_ ->]]. reflexivity. }
        rewrite zlen_app in Hys.
        destruct ys as [|y [|y' ys]]; rewrite ?zlen_cons, ?zlen_nil in Hys; try lia; [|pose proof (zlen_nonneg _ ys); lia].
        exists h2, j3, [VNull; y]. cbn [app]. splits; auto.
        * eapply stepsK_trans; [exact Hpre0|]. eapply stepsK_trans; [exact Hst1|].
          eapply stepsK_trans; [exact Hex|exact Hpop].
        * eapply heap_le_trans; eassumption.
        * rewrite !zlen_cons, zlen_nil; lia.
        * exists VNull, [y]; split; [reflexivity|constructor].
      + destruct IHb as [h2 [j2 [stk [Hst1 [Henv2 [Hle2 [Hb Hz]]]]]]].
        exists h2, j2, stk. rewrite <- HpcB. splits; auto; [| |lia].
        * eapply stepsK_trans; eassumption.
        * eapply heap_le_trans; eassumption.
      + destruct IHb as [h2 [j2 [stk [Hst1 [Henv2 [Hle2 [Hb Hz]]]]]]].
        exists h2, j2, stk. rewrite <- HpcC. splits; auto.
        * eapply stepsK_trans; eassumption.
        * eapply heap_le_trans; eassumption.
        * pose proof (Hct sb). lia.
      + eapply stepsK_failsR; eassumption.
    - (* SWhile *)
      rewrite dstmt_while. cbn [compile_stmt wleaves gwneed wbneed] in *. destruct Hcore as [Hc0 Hc1].
      set (N := Z.of_nat fuel) in *. assert (HN : 0 <= N) by lia.
      set (cc := compile_expr c) in *.
      set (B := compile_stmt 0 (zlen cc + 1) 1 s) in *.
      assert (HB : ssize 0 s = zlen B) by (symmetry; apply ssize_compile).
      rewrite HB in Hat. cbn [app] in Hat.
      pose proof (wleaves_nonneg s) as Hwl. pose proof (wbneed_nonneg s) as Hbs. pose proof (gwneed_nonneg N s HN) as Hns.
      assert (HNwl : 0 <= N * wleaves s) by nia.
      pose proof (code_at_tail _ _ _ _ Hat) as Hat1.                        (* cc ++ jne :: B ++ [jmp; block.pop] *)
      pose proof (code_at_app_l _ _ _ _ (code_at_tail _ _ _ _ (code_at_app_r _ _ _ _ Hat1))) as Hat3.
      set (lb' := zlen live :: ifb ++ lb) in *.
      pose proof (loop_correct c s fuel (ifb ++ lb) live (pc + 1) Hc0 Hat1 Hneed
                    (fun env1 junk h1 j1 Henv1 Hroom =>
                       IHs Hc1 0%nat (zlen cc + 1) 1 [] lb' live fuel env1 (pc + 1 + zlen cc + 1) (junk ++ live) h1 j1 Hat3 Henv1 Hroom
                           ltac:(cbn [app]; unfold lb'; rewrite zlen_cons; lia) eq_refl (ex_intro _ junk eq_refl) Logic.I Logic.I)
                    fuel env [] h (counted j) Henv ltac:(rewrite zlen_nil; lia)) as Y.
      cbn [app] in Y. fold cc B lb' in Y.
      pose proof ((cp step_blockpush dice) pc live (ifb ++ lb) h j (code_at_head _ _ _ _ Hat) ltac:(lia) ltac:(lia)) as Hbp. fold lb' in Hbp.
      assert (Hend : pc + zlen (I OpBlockPush ONil :: cc ++ I OpJne (OInt (zlen B + 1)) :: B ++
                                  [I OpJmp (OInt (- (zlen cc + 1 + zlen B + 1))); I OpBlockPop ONil])
                     = pc + 1 + zlen cc + 1 + zlen B + 1 + 1) by pcfix.
      cbn [app]. rewrite HB, Hend.
      destruct (dloop (e_cfg E) fuel c s fuel env) as [v3 env3|env3|env3|k env3| |w]; try exact Logic.I; try contradiction.
      + destruct Y as [-> [h3 [j3 [Hst3 [Henv3 Hle3]]]]]. exists h3, j3, [VNull]. cbn [app]. splits; auto.
        * eapply stepsK_trans; [apply steps_stepsK; exact Hbp|exact Hst3].
        * rewrite zlen_cons, zlen_nil. lia.
        * exists VNull, []. split; [reflexivity|constructor].
      + eapply stepsK_failsR; [apply steps_stepsK; exact Hbp|exact Y].
    - (* SBreak *)
      cbn [dstmt compile_stmt wleaves gwneed] in *. destruct Hpre as [pre Hpre]. subst d.
      destruct ((pops_jmp dice) ifb lb base pre live j pc h ao Hat Hpre Hdesc Hhead ltac:(lia)) as [j1 [junk [Hst [Hz Hz2]]]].
      exists h, j1, (junk ++ base). splits; auto using heap_le_refl; [|exists junk; reflexivity].
      replace (pc + zlen (pops (length ifb) ++ [I OpJmp (OInt ao)]) + ao) with (pc + zlen (pops (length ifb)) + ao + 1) by pcfix.
      exact Hst.
    - (* SContinue *)
      cbn [dstmt compile_stmt wleaves gwneed] in *. destruct Hpre as [pre Hpre]. subst d.
      destruct ((pops_jmp dice) ifb lb base pre live j pc h _ Hat Hpre Hdesc Hhead ltac:(lia)) as [j1 [junk [Hst [Hz Hz2]]]].
      exists h, j1, (junk ++ base). splits; auto using heap_le_refl; [|exists junk; reflexivity|].
      + replace (pc - bo) with (pc + zlen (pops (length ifb)) + - (bo + Z.of_nat (length ifb) + 1) + 1)
          by (unfold pops; rewrite zlen_repeat; lia).
        exact Hst.
      + unfold cont_top. rewrite Hz. destruct ifb; cbn [wleaves]; lia.
  Qed.
  End Stmts.
End Run.

(* `fuel0`: every larger amount of fuel gives the same outcome (the same final state). *)
Definition prog_post_arr (cfg : config) (ftab : ftab) (fuel : nat) (p : stmt) (env : denv) (src : string) (st : vmstate) : Prop :=
  match denote fuel cfg p env with
  | DVal v env' =>
    exists fuel0 st' vv,
      (forall fuel', (fuel0 <= fuel')%nat -> run fuel' {| e_ftab := ftab; e_cfg := cfg |} (compile p) src st = Val vv st')
      /\ arel (vs_heap st') v vv /\ erel (vs_heap st') env' (vars_of_state st')
      /\ vs_attrs st' = vs_attrs st /\ heap_le (vs_heap st) (vs_heap st')
  | DErr c env' =>
    exists fuel0 st',
      (forall fuel', (fuel0 <= fuel')%nat -> run fuel' {| e_ftab := ftab; e_cfg := cfg |} (compile p) src st = Err c st')
      /\ erel (vs_heap st') env' (vars_of_state st')
  | DOutOfFuel | DUnsup _ => True
  end.

(* Every statement and every expression.  `fuel` is the fuel of the definition: the number of iterations ONE execution
   of a loop may make; the budget `gwneed` asks for room for that many iterations of every loop, since the VM leaks the
   operand-stack slots of a loop body once per iteration.  Since the final state is again related to the final
   environment, the statement composes over histories of programs on one VM, including after failed ones. *)
Theorem compile_correct_gen : forall p fuel cfg, gstmt (roll_fixed cfg) p -> gwneed (Z.of_nat fuel) p <= 999 -> wbneed p <= 20 ->
  forall ftab env src st,
    cfg_op_limit cfg = 0 -> erel (vs_heap st) env (vars_of_state st) ->
    prog_post_arr cfg ftab fuel p env src st.
Proof.
  intros p fuel cfg Hcore Hsn Hbn ftab env src st Hlim Henv. unfold prog_post_arr, denote.
  set (E := {| e_ftab := ftab; e_cfg := cfg |}).
  set (prog := compile p).
  set (j0 := {| v_dead := []; v_last := LNone; v_details := []; v_ops := 0 |}).
  set (wod0 := {| w_pool := 0; w_points := 0; w_threshold := 0; w_isge := false |}).
  set (dc0 := {| c_pool := 0; c_points := 0 |}).
  assert (Hat : code_at prog 0 (compile_stmt 0 0 0 p)).
  { exists [], [I OpHalt ONil]. split; reflexivity. }
  pose proof (gstmt_correct E Hlim prog wod0 dc0 (Some src) (vs_pcg st) [] (vs_attrs st) [] p Hcore 0%nat 0 0 [] [] [] fuel env 0 []
                            (vs_heap st) j0 Hat Henv) as H.
  specialize (H ltac:(rewrite zlen_nil; lia) ltac:(cbn [app]; rewrite zlen_nil; lia) eq_refl (ex_intro _ [] eq_refl) Logic.I Logic.I).
  unfold gpost in H. cbn [app] in H.
  change (e_cfg E) with cfg in H.
  assert (Hrun : forall f, run f E prog src st =
                           match exec f E (M prog [] wod0 dc0 (Some src) (vs_pcg st) [] (vs_attrs st) 0 [] [] (vs_heap st) j0) with
                           | Fin m => Val (match fr_live (m_fr m) with v :: _ => v | [] => VNull end) (state_of m)
                           | Fail e m => Err e (state_of m)
                           | Panic s => OPanic s
                           | OutOfFuel => OOutOfFuel
                           | Unsupported s => OUnsupported s
                           end) by (intros; reflexivity).
  destruct (dstmt cfg fuel p env) as [v env1|e1|e1|c env1| |w]; try exact Logic.I.
  - destruct H as [h1 [j1 [junk [[n [K Hst]] [Henv1 [Hle [Hl Hv]]]]]]].
    assert (Hhalt : nth_error prog (Z.to_nat (0 + zlen (compile_stmt 0 0 0 p))) = Some (I OpHalt ONil)).
    { unfold prog, compile. rewrite Z.add_0_l. apply nth_error_mid. }
    pose proof (wleaves_le_gwneed (Z.of_nat fuel) p ltac:(lia)) as Hls. pose proof (zlen_nonneg _ (compile_stmt 0 0 0 p)) as Hnn.
    assert (Hne : zlen (junk ++ []) < stack_size) by (rewrite zlen_app, zlen_nil; unfold stack_size; lia).
    assert (Hpc : 0 <= 0 + zlen (compile_stmt 0 0 0 p)) by lia.
    exists (n + S K)%nat. eexists. eexists. split; [|split; [|split; [|split]]].
    + intros fuel' Hf. replace fuel' with (n + S (fuel' - n - 1))%nat by lia.
      rewrite Hrun, (Hst (fuel' - n - 1)%nat ltac:(lia)).
      rewrite (exec_S E Hlim prog [] wod0 dc0 (Some src) (vs_pcg st) [] (vs_attrs st) _ _ _ _ _ _ _ (conj Hpc Hhalt) Hne).
      cbn [step i_op]. reflexivity.
    + cbn [CompileProofs.M m_fr fr_live state_of m_w w_heap vs_heap]. destruct v as [x|].
      * destruct Hv as [vx [junk' [-> Hx]]]. exact Hx.
      * destruct Hv as [-> _]. constructor.
    + exact Henv1.
    + reflexivity.
    + exact Hle.
  - destruct H as [n [K [m' [Hf Hv]]]].
    exists (n + S K)%nat, (state_of m'). split; [|exact Hv].
    intros fuel' Hfu. replace fuel' with (n + S (fuel' - n - 1))%nat by lia.
    rewrite Hrun, (Hf (fuel' - n - 1)%nat ltac:(lia)). reflexivity.
Qed.

Lemma prog_post_arr_run : forall cfg ftab fuel p env src st, prog_post_arr cfg ftab fuel p env src st ->
  match denote fuel cfg p env with
  | DVal v env' =>
    exists fuel' st' vv, run fuel' {| e_ftab := ftab; e_cfg := cfg |} (compile p) src st = Val vv st'
                         /\ arel (vs_heap st') v vv /\ erel (vs_heap st') env' (vars_of_state st')
                         /\ vs_attrs st' = vs_attrs st /\ heap_le (vs_heap st) (vs_heap st')
  | DErr c env' =>
    exists fuel' st', run fuel' {| e_ftab := ftab; e_cfg := cfg |} (compile p) src st = Err c st'
                      /\ erel (vs_heap st') env' (vars_of_state st')
  | DOutOfFuel | DUnsup _ => True
  end.
Proof.
  intros cfg ftab fuel p env src st H.
  unfold prog_post_arr in H. destruct (denote fuel cfg p env) as [v env'|c env'| |w]; try exact Logic.I.
  - destruct H as [fuel0 [st' [vv [Hr Hrest]]]]. exists fuel0, st', vv. split; [apply Hr; lia|exact Hrest].
  - destruct H as [fuel0 [st' [Hr Hrest]]]. exists fuel0, st'. split; [apply Hr; lia|exact Hrest].
Qed.

(* Every statement of Model/Ast.v (while / break / continue included), every expression except dice terms. *)
Theorem compile_correct_loops_stable : forall p fuel, loop_stmt p -> wneed (Z.of_nat fuel) p <= 999 -> wbneed p <= 20 ->
  forall cfg ftab env src st,
    cfg_op_limit cfg = 0 -> erel (vs_heap st) env (vars_of_state st) ->
    prog_post_arr cfg ftab fuel p env src st.
Proof.
  intros p fuel Hp Hn Hb cfg ftab env src st Hlim Henv.
  apply compile_correct_gen; auto using loop_gstmt.
  rewrite gwneed_loop_stmt by exact Hp. exact Hn.
Qed.

Theorem compile_correct_loops : forall p fuel, loop_stmt p -> wneed (Z.of_nat fuel) p <= 999 -> wbneed p <= 20 ->
  forall cfg ftab env src st,
    cfg_op_limit cfg = 0 -> erel (vs_heap st) env (vars_of_state st) ->
    match denote fuel cfg p env with
    | DVal v env' =>
      exists fuel' st' vv, run fuel' {| e_ftab := ftab; e_cfg := cfg |} (compile p) src st = Val vv st'
                           /\ arel (vs_heap st') v vv /\ erel (vs_heap st') env' (vars_of_state st')
                           /\ vs_attrs st' = vs_attrs st /\ heap_le (vs_heap st) (vs_heap st')
    | DErr c env' =>
      exists fuel' st', run fuel' {| e_ftab := ftab; e_cfg := cfg |} (compile p) src st = Err c st'
                        /\ erel (vs_heap st') env' (vars_of_state st')
    | DOutOfFuel | DUnsup _ => True
    end.
Proof. intros. apply prog_post_arr_run, compile_correct_loops_stable; assumption. Qed.

(* loop-free programs: the budget does not depend on the fuel *)
Theorem compile_correct_arrays_stable : forall p, arr_stmt p -> asneed p <= 999 -> bneed p <= 20 ->
  forall cfg ftab fuel env src st,
    cfg_op_limit cfg = 0 -> erel (vs_heap st) env (vars_of_state st) ->
    prog_post_arr cfg ftab fuel p env src st.
Proof.
  intros p Hp Hn Hb cfg ftab fuel env src st Hlim Henv.
  apply compile_correct_loops_stable; auto using arr_loop_stmt.
  - rewrite wneed_arr by exact Hp. exact Hn.
  - rewrite wbneed_arr by exact Hp. exact Hb.
Qed.

Theorem compile_correct_arrays : forall p, arr_stmt p -> asneed p <= 999 -> bneed p <= 20 ->
  forall cfg ftab fuel env src st,
    cfg_op_limit cfg = 0 -> erel (vs_heap st) env (vars_of_state st) ->
    match denote fuel cfg p env with
    | DVal v env' =>
      exists fuel' st' vv, run fuel' {| e_ftab := ftab; e_cfg := cfg |} (compile p) src st = Val vv st'
                           /\ arel (vs_heap st') v vv /\ erel (vs_heap st') env' (vars_of_state st')
                           /\ vs_attrs st' = vs_attrs st /\ heap_le (vs_heap st) (vs_heap st')
    | DErr c env' =>
      exists fuel' st', run fuel' {| e_ftab := ftab; e_cfg := cfg |} (compile p) src st = Err c st'
                        /\ erel (vs_heap st') env' (vars_of_state st')
    | DOutOfFuel | DUnsup _ => True
    end.
Proof. intros. apply prog_post_arr_run, compile_correct_arrays_stable; assumption. Qed.

Lemma erel_scalar_env : forall h env m, erel h env m -> scalar_env env -> m = inj_env env.
Proof.
  intros h env m H; induction H as [|[k a] [k' v] env m [Hk Hv] Hr IH]; intros Hs; [reflexivity|].
  inversion Hs; subst. cbn in *. subst k'. rewrite (arel_scalar _ _ _ Hv) by assumption. f_equal. auto.
Qed.

(* Scalar expressions, stated with the function `inj` and for EVERY amount of fuel: the scalar case of the induction
   has no fuel threshold, and on scalars the relations are equalities. *)
Theorem expr_correct :
  forall (E : env), cfg_op_limit (e_cfg E) = 0 ->
  forall prog dice wod dc src pcg0 st0 attrs e, core_expr e ->
  forall env pc live blocks h j,
    code_at prog pc (compile_expr e) -> get_map attrs h = inj_env env -> scalar_env env -> zlen live + need e <= 999 ->
    match dexpr (e_cfg E) e env with
    | EV v env' =>
      exists h' j', steps E (M prog dice wod dc src pcg0 st0 attrs pc live blocks h j)
                          (M prog dice wod dc src pcg0 st0 attrs (pc + zlen (compile_expr e)) (inj v :: live) blocks h' j')
                    /\ get_map attrs h' = inj_env env' /\ scalar v /\ scalar_env env'
    | EE c env' => fails E (M prog dice wod dc src pcg0 st0 attrs pc live blocks h j) c (inj_env env')
    | EU _ => True
    end.
Proof.
  intros E Hlim prog dice wod dc src pcg0 st0 attrs e Hc env pc live blocks h j Hat Hh Hs Hneed.
  destruct (gexpr_correctS E Hlim prog wod dc src pcg0 st0 attrs e true dice (arr_gexpr _ _ (core_arr_expr _ Hc)) env pc _ live blocks h j
              Hat eq_refl ltac:(rewrite Hh; apply erel_inj_env; exact Hs)
              ltac:(rewrite (gneed_arr_expr _ (core_arr_expr _ Hc)), (aneed_core _ Hc); exact Hneed) (fun _ => conj Hc Hs))
    as [K [A R]].
  destruct (R eq_refl) as [-> Hsc]. destruct (dexpr (e_cfg E) e env) as [v env'|c env'|w]; cbn [reachA sc_eres] in *; [| |exact Logic.I].
  - destruct A as [vv [h' [j' [[n S] [Hv [He _]]]]]]. destruct Hsc as [Hsv Hse].
    rewrite (arel_scalar _ _ _ Hv Hsv) in S. exists h', j'. repeat split; try assumption.
    + exists n. intros fuel. apply S. lia.
    + eapply erel_scalar_env; eassumption.
  - destruct A as [n [m' [F He]]]. exists n. intros fuel. exists m'. split; [apply F; lia|]. eapply erel_scalar_env; eassumption.
Qed.

(* Why it overflows: every iteration of the loop leaves the value of `i=i+1` on the operand stack.  From a loop head
   with i = z and room for one iteration the machine is back at the loop head with i = z + 1 and one more slot in use;
   after 997 iterations 998 slots are in use, the condition pushes `i` and `2000`, and the next instruction is not
   fetched any more. *)
Section Leak.
  Variables (ftab : VM.ftab) (src : string) (st : vmstate).
  Notation E0 := {| e_ftab := ftab; e_cfg := cfg0 |}.
  Notation at_ L := (L E0 eq_refl (compile leak_witness) [] (fr_wod (new_frame [] None)) (fr_dc (new_frame [] None))
                       (Some src) (vs_pcg st) [] (vs_attrs st)) (only parsing).
  Notation Mk := (M (compile leak_witness) [] (fr_wod (new_frame [] None)) (fr_dc (new_frame [] None))
                    (Some src) (vs_pcg st) [] (vs_attrs st)).
  Notation cond := (EBin BLt (EVar "i") (EInt 2000)).
  Notation body := (EAssign "i" (EBin BAdd (EVar "i") (EInt 1))).
  Notation vars z := (inj_env [("i"%string, DvInt z)]).

  Lemma leak_cond : forall z, dexpr cfg0 cond [("i"%string, DvInt z)] = EV (dbool (z <? 2000)) [("i"%string, DvInt z)].
  Proof. reflexivity. Qed.
  Lemma leak_body : forall z, 0 <= z < 2000 ->
    dexpr cfg0 body [("i"%string, DvInt z)] = EV (DvInt (z + 1)) [("i"%string, DvInt (z + 1))].
  Proof.
    intros z Hz. assert (W : wrap64 (z + 1) = z + 1) by (unfold wrap64; rewrite Z.mod_small; unfold two63, two64; lia).
    cbn -[wrap64]. rewrite W. reflexivity.
  Qed.

  Lemma leak_denote_loop : forall fuel (k : nat) z, 0 <= z <= 2000 -> 2000 - z < Z.of_nat k ->
    dloop cfg0 fuel cond (SExpr body) k [("i"%string, DvInt z)] = SNorm (Some DvNull) [("i"%string, DvInt 2000)].
  Proof.
    induction k as [|k IH]; intros z Hz Hk; [lia|]. cbn [dloop]. rewrite leak_cond.
    destruct (Z.ltb_spec z 2000) as [Hlt|Hge]; cbn [dbool truthy Z.eqb negb].
    - cbn [dstmt]. rewrite leak_body by lia. apply IH; lia.
    - replace z with 2000 by lia. reflexivity.
  Qed.
  Lemma leak_witness_denote : denote 2001 cfg0 leak_witness [] = DVal (DvInt 2000) [("i"%string, DvInt 2000)].
  Proof.
    assert (Hseq : forall a b env, dstmt cfg0 2001 (SSeq a b) env =
              match dstmt cfg0 2001 a env with
              | SNorm v1 env1 => match dstmt cfg0 2001 b env1 with
                                 | SNorm v2 env2 => SNorm (match v2 with Some _ => v2 | None => v1 end) env2
                                 | r => r
                                 end
              | r => r
              end) by reflexivity.
    assert (H0 : dstmt cfg0 2001 (SExpr (EAssign "i" (EInt 0))) [] = SNorm (Some (DvInt 0)) [("i"%string, DvInt 0)]) by reflexivity.
    assert (H1 : dstmt cfg0 2001 (SExpr (EVar "i")) [("i"%string, DvInt 2000)] = SNorm (Some (DvInt 2000)) [("i"%string, DvInt 2000)])
      by reflexivity.
    unfold denote, leak_witness. rewrite Hseq, H0, Hseq, dstmt_while, leak_denote_loop, H1; [reflexivity|lia|reflexivity].
  Qed.

  Lemma leak_iteration : forall z live blocks h j,
    0 <= z < 2000 -> get_map (vs_attrs st) h = vars z -> zlen live + 2 <= 999 ->
    exists h' j', steps E0 (Mk 3 live blocks h j) (Mk 3 (VInt (z + 1) :: live) blocks h' j')
                  /\ get_map (vs_attrs st) h' = vars (z + 1).
  Proof.
    intros z live blocks h j Hz Hh Hroom.
    assert (Hs : forall y, scalar_env [("i"%string, DvInt y)]) by (intros; repeat constructor).
    pose proof ((at_ expr_correct) cond (conj eq_refl Logic.I) _ 3 live blocks h j
                  (ex_intro _ (firstn 3 (compile leak_witness)) (ex_intro _ (skipn 7 (compile leak_witness)) (conj eq_refl eq_refl)))
                  Hh (Hs z) Hroom) as C.
    cbn [e_cfg] in C. rewrite leak_cond, (proj2 (Z.ltb_lt z 2000)) in C by lia. destruct C as [h1 [j1 [S1 [Hh1 _]]]].
    pose proof ((at_ step_jne) 7 (VInt 1) live blocks h1 j1 6 ltac:(split; [lia|reflexivity]) ltac:(rewrite zlen_cons; lia)) as S2.
    pose proof ((at_ expr_correct) body (conj eq_refl Logic.I) _ 8 live blocks h1 (popped E0 (VInt 1) (zlen live) j1)
                  (ex_intro _ (firstn 8 (compile leak_witness)) (ex_intro _ (skipn 13 (compile leak_witness)) (conj eq_refl eq_refl)))
                  Hh1 (Hs z) Hroom) as B.
    cbn [e_cfg] in B. rewrite leak_body in B by lia. destruct B as [h2 [j2 [S3 [Hh2 _]]]].
    pose proof ((at_ step_jmp) 13 (VInt (z + 1) :: live) blocks h2 j2 (-11) ltac:(split; [lia|reflexivity]) ltac:(rewrite zlen_cons; lia)) as S4.
    exists h2, (counted E0 j2). split; [|exact Hh2].
    eapply steps_trans; [exact S1|]. eapply steps_trans; [exact S2|]. eapply steps_trans; [exact S3|exact S4].
  Qed.

  Lemma leak_iterations : forall (k : nat) blocks h0 j0, (k <= 997)%nat -> get_map (vs_attrs st) h0 = vars 0 ->
    exists live h j, steps E0 (Mk 3 [VInt 0] blocks h0 j0) (Mk 3 live blocks h j)
                     /\ zlen live = Z.of_nat k + 1 /\ get_map (vs_attrs st) h = vars (Z.of_nat k).
  Proof.
    induction k as [|k IH]; intros blocks h0 j0 Hk Hh0.
    - exists [VInt 0], h0, j0. split; [apply steps_refl|]. split; [reflexivity|exact Hh0].
    - destruct (IH blocks h0 j0 ltac:(lia) Hh0) as [live [h [j [S [Hl Hh]]]]].
      destruct (leak_iteration (Z.of_nat k) live blocks h j ltac:(lia) Hh ltac:(lia)) as [h' [j' [S' Hh']]].
      exists (VInt (Z.of_nat k + 1) :: live), h', j'. rewrite Nat2Z.inj_succ, zlen_cons.
      split; [eapply steps_trans; eassumption|]. split; [lia|exact Hh'].
  Qed.

  Lemma leak_witness_overflows : vars_of_state st = inj_env [] ->
    exists fuel' st', run fuel' E0 (compile leak_witness) src st = Err EStack st'.
  Proof.
    intros Hv.
    pose proof ((at_ expr_correct) (EAssign "i" (EInt 0)) Logic.I [] 0 [] [] (vs_heap st)
                  {| v_dead := []; v_last := LNone; v_details := []; v_ops := 0 |}
                  (ex_intro _ [] (ex_intro _ (skipn 2 (compile leak_witness)) (conj eq_refl eq_refl)))
                  Hv (Forall_nil _) ltac:(rewrite zlen_nil; cbn; lia)) as A.
    cbn [dexpr e_cfg dset lit_int] in A. destruct A as [h1 [j1 [S1 [Hh1 _]]]].
    pose proof ((at_ step_blockpush) 2 [VInt 0] [] h1 j1 ltac:(split; [lia|reflexivity]) ltac:(cbn; lia) ltac:(cbn; lia)) as S2.
    destruct (leak_iterations 997 [zlen [VInt 0]] h1 (counted E0 j1) (le_n _) Hh1) as [live [h [j [S3 [Hl Hh]]]]].
    destruct ((at_ step_mark) 3 live [zlen [VInt 0]] h j 0 0 ltac:(split; [lia|reflexivity]) ltac:(lia)) as [j2 S4].
    destruct (step_ldd E0 eq_refl (compile leak_witness) (fr_wod (new_frame [] None)) (fr_dc (new_frame [] None)) (Some src)
                (vs_pcg st) [] (vs_attrs st) [] 4 live [zlen [VInt 0]] h j2 "i"%string _
                ltac:(rewrite Hh; apply erel_inj_env; repeat constructor) eq_refl ltac:(split; [lia|reflexivity]) ltac:(lia))
      as [vi [h' [j3 [[n5 S5] _]]]].
    destruct ((at_ step_push) 5 (vi :: live) [zlen [VInt 0]] h' j3
                 (I OpPushInt (OInt 2000)) (VInt 2000) (fun _ _ _ => eq_refl) ltac:(split; [lia|reflexivity]) ltac:(rewrite zlen_cons; lia)) as [j4 S6].
    assert (S5' : steps E0 (Mk 4 live [zlen [VInt 0]] h j2) (Mk (4 + 1) (vi :: live) [zlen [VInt 0]] h' j3))
      by (exists n5; intros fuel; apply S5; lia).
    destruct (steps_trans _ _ _ _ S1 (steps_trans _ _ _ _ S2 (steps_trans _ _ _ _ S3
               (steps_trans _ _ _ _ S4 (steps_trans _ _ _ _ S5' S6))))) as [n Hn].
    destruct ((at_ exec_full) 0%nat (5 + 1) (VInt 2000 :: vi :: live) [zlen [VInt 0]] h' j4)
      as [m Hm]; [cbn; lia|rewrite !zlen_cons; unfold stack_size; lia|].
    exists (n + 1)%nat, (state_of m). unfold run.
    change (exec (n + 1) E0 _) with (exec (n + 1) E0 (Mk 0 [] [] (vs_heap st) {| v_dead := []; v_last := LNone; v_details := []; v_ops := 0 |})).
    rewrite (Hn 0%nat), Hm. reflexivity.
  Qed.
End Leak.

Theorem compile_correct_statement_refuted : ~ compile_correct_statement.
Proof.
  intros H.
  specialize (H leak_witness cfg0 [] 2001%nat [] ""%string (init_vmstate {| hi := 1; lo := 2 |}) eq_refl eq_refl).
  assert (Henv : env_rel (vs_heap (init_vmstate {| hi := 1; lo := 2 |})) [] (vars_of_state (init_vmstate {| hi := 1; lo := 2 |}))).
  { intros x. vm_compute. exact Logic.I. }
  specialize (H Henv). rewrite leak_witness_denote in H. destruct H as [_ H].
  destruct (leak_witness_overflows [] ""%string (init_vmstate {| hi := 1; lo := 2 |}) eq_refl) as [fuel' [st' Hr]].
  specialize (H fuel'). rewrite Hr in H. exact H.
Qed.

(* without arrays the relations are the equalities of CompileProofs, and the definition stays inside the fragment *)
Theorem compile_correct_core : forall p, core_stmt p -> sneed p <= 999 -> bneed p <= 20 ->
  forall cfg ftab fuel env src st,
    cfg_op_limit cfg = 0 -> scalar_env env -> vars_of_state st = inj_env env ->
    match denote fuel cfg p env with
    | DVal v env' =>
      exists fuel' st', run fuel' {| e_ftab := ftab; e_cfg := cfg |} (compile p) src st = Val (inj v) st'
                        /\ vars_of_state st' = inj_env env' /\ vs_attrs st' = vs_attrs st /\ scalar v /\ scalar_env env'
    | DErr c env' =>
      exists fuel' st', run fuel' {| e_ftab := ftab; e_cfg := cfg |} (compile p) src st = Err c st'
                        /\ vars_of_state st' = inj_env env'
    | DOutOfFuel | DUnsup _ => True
    end.
Proof.
  intros p Hp Hn Hb cfg ftab fuel env src st Hl Hs Hv.
  pose proof (compile_correct_arrays p (core_arr_stmt _ Hp) ltac:(rewrite asneed_core; assumption) Hb cfg ftab fuel env src st Hl
                ltac:(rewrite Hv; apply erel_inj_env; exact Hs)) as X.
  pose proof (dstmt_scalar cfg fuel p Hp env Hs) as Y. unfold denote in *.
  destruct (dstmt cfg fuel p env) as [v env'| | |c env'| |]; cbn in *; auto.
  - destruct X as [f [st' [vv [Hr [Ha [He [Hat _]]]]]]]. destruct Y as [Yv Ye].
    assert (Sv : scalar (match v with Some x => x | None => DvNull end)) by (destruct v; auto; exact Logic.I).
    exists f, st'. rewrite Hr, (arel_scalar _ _ _ Ha Sv). repeat split; auto. eapply erel_scalar_env; eassumption.
  - destruct X as [f [st' [Hr He]]]. exists f, st'. split; [exact Hr|]. eapply erel_scalar_env; eassumption.
Qed.

Definition st_init : vmstate := init_vmstate {| hi := 1; lo := 2 |}.
Lemma erel_init : erel (vs_heap st_init) [] (vars_of_state st_init).
Proof. vm_compute. constructor. Qed.

(* arrays built, stored, read back, indexed (also from the end), concatenated, repeated and compared *)
Definition example_arrays : stmt :=
  SSeq (SExpr (EAssign "a" (EArr [EInt 1; EArr [EInt 2; EStr "x"]; ENull])))
  (SSeq (SExpr (EAssign "b" (EBin BAdd (EVar "a") (EBin BMul (EArr [EIdx (EVar "a") (EUn UNeg (EInt 3))]) (EInt 2)))))
  (SSeq (SIf (EBin BEq (EIdx (EVar "b") (EInt 1)) (EArr [EInt 2; EStr "x"]))
             (SExpr (EAssign "c" (EIdx (EIdx (EVar "b") (EInt 1)) (EInt 1))))
             (SExpr (EAssign "c" (EInt 0))))
        (SExpr (EArr [EVar "c"; EIdx (EVar "b") (EInt 4)])))).
Example example_arrays_ok :
  arr_stmt example_arrays /\ asneed example_arrays <= 999 /\ bneed example_arrays <= 20 /\
  denote 0 cfg0 example_arrays [] =
    DVal (DvArr [DvStr "x"; DvInt 1])
         [("a"%string, DvArr [DvInt 1; DvArr [DvInt 2; DvStr "x"]; DvNull]);
          ("b"%string, DvArr [DvInt 1; DvArr [DvInt 2; DvStr "x"]; DvNull; DvInt 1; DvInt 1]);
          ("c"%string, DvStr "x")].
Proof. repeat split; vm_compute; try reflexivity; discriminate. Qed.
Example example_arrays_error :
  denote 0 cfg0 (SSeq (SExpr (EAssign "a" (EArr [EInt 1]))) (SExpr (EIdx (EVar "a") (EInt 1)))) []
  = DErr EIndex [("a"%string, DvArr [DvInt 1])].
Proof. vm_compute. reflexivity. Qed.

Example example_loop_ok :
  loop_stmt example_prog /\ wneed (Z.of_nat 20) example_prog <= 999 /\ wbneed example_prog <= 20 /\
  denote 20 cfg0 example_prog [] = DVal (DvInt 32) [("x"%string, DvInt 16); ("i"%string, DvInt 9)].
Proof. repeat split; vm_compute; try reflexivity; discriminate. Qed.
(* the leak is what the hypothesis measures: 900 iterations fit, the 2000 of leak_witness do not *)
Definition count_to (n : N) : stmt :=
  SSeq (SExpr (EAssign "i" (EInt 0)))
       (SSeq (SWhile (EBin BLt (EVar "i") (EInt n)) (SExpr (EAssign "i" (EBin BAdd (EVar "i") (EInt 1)))))
             (SExpr (EVar "i"))).
Example count_900_fits : wneed (Z.of_nat 901) (count_to 900) <= 999 /\ denote 901 cfg0 (count_to 900) [] = DVal (DvInt 900) [("i"%string, DvInt 900)].
Proof. split; vm_compute; [discriminate|reflexivity]. Qed.
Example leak_witness_does_not_fit : leak_witness = count_to 2000 /\ 999 < wneed (Z.of_nat 2001) leak_witness.
Proof. split; vm_compute; reflexivity. Qed.

Example example_arrays_run :
  exists fuel' st' vv, run fuel' {| e_ftab := []; e_cfg := cfg0 |} (compile example_arrays) "" st_init = Val vv st'
                       /\ arel (vs_heap st') (DvArr [DvStr "x"; DvInt 1]) vv.
Proof.
  destruct example_arrays_ok as [H1 [H2 [H3 H4]]].
  pose proof (compile_correct_arrays example_arrays H1 H2 H3 cfg0 [] 0%nat [] ""%string st_init eq_refl erel_init) as X.
  rewrite H4 in X. destruct X as [f [st' [vv [Hr [Hv _]]]]]. exists f, st', vv. split; assumption.
Qed.
Example count_900_run :
  exists fuel' st', run fuel' {| e_ftab := []; e_cfg := cfg0 |} (compile (count_to 900)) "" st_init = Val (VInt 900) st'.
Proof.
  destruct count_900_fits as [H1 H2].
  assert (Hl : loop_stmt (count_to 900)) by (vm_compute; repeat split; reflexivity).
  assert (Hb : wbneed (count_to 900) <= 20) by (vm_compute; discriminate).
  pose proof (compile_correct_loops (count_to 900) 901%nat Hl H1 Hb cfg0 [] [] ""%string st_init eq_refl erel_init) as X.
  rewrite H2 in X. destruct X as [f [st' [vv [Hr [Hv _]]]]]. inversion Hv; subst. exists f, st'. exact Hr.
Qed.

(* Soundness of the byte-code verifier (Model/Verify.v) for the shape machine (Model/Bytecode.v),
   preceded by the facts about the verifier's own definitions (the order on abstract states, the
   transfer function, `check_pc`, `check`) through which the later files use them. *)
From Coq Require Import NArith ZArith List Bool String Lia.
From DS Require Import Model.Bytecode Model.Verify.
Import ListNotations.

Lemma all_ok_iff {A} (f : A -> bool) l : all_ok f l = true <-> forall x, In x l -> f x = true.
Proof.
  induction l as [|y r IH]; cbn [all_ok In]; [split; [intros _ x []|reflexivity]|].
  destruct (f y) eqn:E.
  - rewrite IH. split; [intros H x [<-|Hx]; auto|auto].
  - split; [discriminate|]. intro H. rewrite <- E. auto.
Qed.

Lemma list_le_refl l : list_le l l = true.
Proof. induction l as [|x r IH]; [reflexivity|]. cbn [list_le]. rewrite Nat.leb_refl. exact IH. Qed.

Lemma list_le_trans : forall l3 l2 l1, list_le l3 l2 = true -> list_le l2 l1 = true -> list_le l3 l1 = true.
Proof.
  induction l3 as [|x3 r3 IH]; intros [|x2 r2] [|x1 r1] H1 H2; cbn [list_le] in *; try discriminate; auto.
  destruct (Nat.leb_spec x3 x2); [|discriminate]. destruct (Nat.leb_spec x2 x1); [|discriminate].
  rewrite (proj2 (Nat.leb_le x3 x1)) by lia. eauto.
Qed.

Lemma opt_le_refl o : opt_le o o = true.
Proof. destruct o; [apply Nat.leb_refl|reflexivity]. Qed.

Lemma opt_le_trans o3 o2 o1 : opt_le o3 o2 = true -> opt_le o2 o1 = true -> opt_le o3 o1 = true.
Proof.
  destruct o3 as [d3|], o2 as [d2|], o1 as [d1|]; cbn [opt_le]; try discriminate; auto.
  rewrite !Nat.leb_le. lia.
Qed.

Lemma fb_le_refl l : fb_le l l = true.
Proof. induction l as [|[x d] r IH]; [reflexivity|]. cbn [fb_le]. rewrite Nat.leb_refl, opt_le_refl. exact IH. Qed.

Lemma fb_le_trans : forall l3 l2 l1, fb_le l3 l2 = true -> fb_le l2 l1 = true -> fb_le l3 l1 = true.
Proof.
  induction l3 as [|[x3 d3] r3 IH]; intros [|[x2 d2] r2] [|[x1 d1] r1] H1 H2; cbn [fb_le] in *; try discriminate; auto.
  destruct (Nat.leb_spec x3 x2); [|discriminate]. destruct (Nat.leb_spec x2 x1); [|discriminate].
  destruct (opt_le d3 d2) eqn:E1; [|discriminate]. destruct (opt_le d2 d1) eqn:E2; [|discriminate].
  rewrite (proj2 (Nat.leb_le x3 x1)) by lia. rewrite (opt_le_trans _ _ _ E1 E2). eauto.
Qed.

Lemma aleb_iff a1 a2 :
  aleb a1 a2 = true <->
  a_lo a2 <= a_lo a1 /\ list_le (a_blocks a2) (a_blocks a1) = true /\ fb_le (a_fb a2) (a_fb a1) = true /\
  opt_le (a_fd a2) (a_fd a1) = true /\ a_dice a2 <= a_dice a1 /\
  implb (a_det a2) (a_det a1) = true /\ implb (a_last a2) (a_last a1) = true.
Proof. unfold aleb. rewrite <- !andb_lazy_alt, !andb_true_iff, !Nat.leb_le. reflexivity. Qed.

Lemma aleb_refl a : aleb a a = true.
Proof. apply aleb_iff. repeat split; auto using list_le_refl, fb_le_refl, opt_le_refl, implb_same. Qed.

Lemma aleb_trans a1 a2 a3 : aleb a1 a2 = true -> aleb a2 a3 = true -> aleb a1 a3 = true.
Proof.
  rewrite !aleb_iff. intros (A1 & A2 & A3 & A4 & A5 & A6 & A7) (B1 & B2 & B3 & B4 & B5 & B6 & B7).
  repeat split; eauto using Nat.le_trans, list_le_trans, fb_le_trans, opt_le_trans.
  - destruct (a_det a3), (a_det a2), (a_det a1); auto.
  - destruct (a_last a3), (a_last a2), (a_last a1); auto.
Qed.

Lemma list_le_sound : forall l2 l1 ls, list_le l2 l1 = true -> Forall2 le l1 ls -> Forall2 le l2 ls.
Proof.
  induction l2 as [|x2 r2 IH]; intros [|x1 r1] ls H F; cbn [list_le] in H; try discriminate.
  - inversion F; constructor.
  - destruct (Nat.leb_spec x2 x1); [|discriminate].
    inversion F; subst. constructor; [lia|]. eapply IH; eauto.
Qed.

Lemma fchain_weaken : forall fes2 fes1 fs hh fd2 fd1,
    fb_le fes2 fes1 = true -> opt_le fd2 fd1 = true ->
    fchain hh fd1 fs fes1 -> fchain hh fd2 fs fes2.
Proof.
  induction fes2 as [|[x2 d2] r2 IH]; intros [|[x1 d1] r1] fs hh fd2 fd1 H Ho F; cbn [fb_le] in H; try discriminate.
  - destruct fs; exact F.
  - destruct (Nat.leb_spec x2 x1); [|discriminate].
    destruct (opt_le d2 d1) eqn:E2; [|discriminate].
    destruct fs as [|s fs]; cbn [fchain] in *; [contradiction|].
    destruct F as [F1 [F2 F3]]. split; [lia|]. split; [|eapply IH; eauto].
    destruct fd2 as [dd2|]; [|exact I]. destruct fd1 as [dd1|]; [|discriminate]. apply Nat.leb_le in Ho. lia.
Qed.

Lemma aleb_sound s a1 a2 : cons_state s a1 -> aleb a1 a2 = true -> cons_state s a2.
Proof.
  intros (H1 & H2 & H3 & H4 & H5 & H6) H. apply aleb_iff in H as (E1 & E2 & E3 & E4 & E5 & E6 & E7).
  repeat split; [lia|eapply list_le_sound; eauto|eapply fchain_weaken; eauto|lia| |].
  - intro Hd. rewrite Hd in E6. exact (H5 E6).
  - intro Hl. rewrite Hl in E7. exact (H6 E7).
Qed.

(* the height may change from hh to hh' if whatever fd' claims relative to the innermost saved height
   follows from what fd claimed; the saved heights themselves do not move *)
Lemma fchain_head hh hh' fd fd' fs fes :
  fchain hh fd fs fes ->
  (forall d', fd' = Some d' -> exists d, fd = Some d /\ forall sv, sv + d <= hh -> sv + d' <= hh') ->
  fchain hh' fd' fs fes.
Proof.
  destruct fs as [|s fs], fes as [|[lb dp] fes]; cbn [fchain]; auto.
  intros [F1 [F2 F3]] H. split; auto. split; auto.
  destruct fd' as [d'|]; auto.
  destruct (H d' eq_refl) as [d [-> Hd]]. apply Hd. exact F2.
Qed.

Lemma fchain_after hh fd fs fes pops push :
  pops <= hh -> fchain hh fd fs fes -> fchain (hh - pops + push) (fd_after fd pops push) fs fes.
Proof.
  intros Hp F. eapply fchain_head; [exact F|]. unfold fd_after. intros d' Hd'.
  destruct fd as [d|]; [|discriminate]. destruct (Nat.leb_spec pops (d + push)); [|discriminate].
  injection Hd' as <-. exists d; split; [reflexivity|]. intros; lia.
Qed.

(* a straight-line instruction: the four guards of `atransfer`, and the state it leaves *)
Definition simple_ok (e : eff) (a : astate) : Prop :=
  e_need_dice e && (a_dice a =? 0) = false /\ e_pops e <= a_lo a /\
  e_need_det e && negb (a_det a) = false /\ e_need_last e && negb (a_last a) = false.

Definition simple_post (e : eff) (a : astate) : astate :=
  {| a_lo := a_lo a - e_pops e + e_push e; a_blocks := a_blocks a; a_fb := a_fb a;
     a_fd := fd_after (a_fd a) (e_pops e) (e_push e);
     a_dice := a_dice a + e_dice_up e - e_dice_down e;
     a_det := a_det a || (0 <? e_det_up e);
     a_last := a_last a || ((0 <? e_pops e) && negb (e_quiet e)) |}.

Lemma atransfer_simple len p e a s :
  atransfer len p (SSimple e) a = AOk s <-> simple_ok e a /\ s = [(S p, simple_post e a)].
Proof.
  unfold simple_ok. cbn [atransfer]. rewrite <- Nat.ltb_ge.
  destruct (e_need_dice e && (a_dice a =? 0)), (a_lo a <? e_pops e), (e_need_det e && negb (a_det a)),
    (e_need_last e && negb (a_last a));
    (split; [try discriminate; intro H; injection H as <-; auto|intros [(? & ? & ? & ?) ->]; try discriminate; reflexivity]).
Qed.

(* the two states a conditional jump leaves: the tested value popped, or (je.dup, taken) kept *)
Definition popped (a : astate) : astate :=
  {| a_lo := a_lo a - 1; a_blocks := a_blocks a; a_fb := a_fb a; a_fd := fd_after (a_fd a) 1 0;
     a_dice := a_dice a; a_det := a_det a; a_last := true |}.
Definition kept (a : astate) : astate :=
  {| a_lo := a_lo a; a_blocks := a_blocks a; a_fb := a_fb a; a_fd := a_fd a;
     a_dice := a_dice a; a_det := a_det a; a_last := true |}.

Lemma jump_target_iff len p off t :
  jump_target len p off = Some t <-> (Z.of_nat t = Z.of_nat p + off + 1)%Z /\ t <= len.
Proof.
  unfold jump_target.
  destruct (Z.ltb_spec (Z.of_nat p + off + 1) 0), (Z.ltb_spec (Z.of_nat len) (Z.of_nat p + off + 1));
    (split; [try discriminate|intros [E L]; try lia]).
  - intro H1. injection H1 as <-. split; lia.
  - f_equal. lia.
Qed.

Definition targets (len p : nat) (sh : shape) : list nat :=
  match sh with
  | SSimple _ | SPeek | SBlockPush | SBlockPop | SFstrPush | SFstrPop => [S p]
  | SJmp off => match jump_target len p off with Some t => [t] | None => [] end
  | SJcond off _ => match jump_target len p off with Some t => [S p; t] | None => [] end
  | SHalt | SBadOperand => []
  end.

Lemma atransfer_targets len p sh a succs : atransfer len p sh a = AOk succs -> map fst succs = targets len p sh.
Proof.
  destruct sh as [e| |off|off dup| | | | | |]; intro H;
    [apply atransfer_simple in H as [_ ->]; reflexivity|cbn [atransfer targets] in *..].
  - destruct (a_lo a =? 0); [discriminate|]. injection H as <-. reflexivity.
  - destruct (jump_target len p off); [|discriminate]. injection H as <-. reflexivity.
  - destruct (a_lo a =? 0); [discriminate|]. destruct (jump_target len p off); [|discriminate]. injection H as <-. reflexivity.
  - injection H as <-. reflexivity.
  - injection H as <-. reflexivity.
  - destruct (a_blocks a); [discriminate|]. injection H as <-. reflexivity.
  - injection H as <-. reflexivity.
  - destruct (a_fb a) as [|[b dp] r]; [discriminate|].
    destruct ((a_lo a =? 0) && match a_fd a with None => true | Some _ => false end); [discriminate|]. injection H as <-. reflexivity.
  - discriminate.
Qed.

Lemma targets_le len p sh t : p < len -> In t (targets len p sh) -> t <= len.
Proof.
  intros Hp. destruct sh as [e| |off|off dup| | | | | |]; cbn [targets]; try (intros [<-|[]]; lia); try (intros []).
  - destruct (jump_target len p off) eqn:E; [|intros []]. apply jump_target_iff in E. intros [<-|[]]. apply E.
  - destruct (jump_target len p off) eqn:E; [|intros []]. apply jump_target_iff in E. intros [<-|[<-|[]]]; [lia|apply E].
Qed.

Definition covered (succs : list (nat * astate)) (s' : sstate) : Prop :=
  exists a', In (pc s', a') succs /\ cons_state s' a'.

Lemma covered_one p s' a' : pc s' = p -> cons_state s' a' -> Forall (covered [(p, a')]) [s'].
Proof. intros <- H. constructor; [|constructor]. exists a'; split; [left; reflexivity|exact H]. Qed.

(* a guard  b && c  of the machine is off whenever the verifier's guard is, if c is the weaker test *)
Lemma guard_mono (b c c' : bool) : b && c = false -> (c' = true -> c = true) -> b && c' = false.
Proof. destruct b, c, c'; cbn; intros H1 H2; auto; symmetry; auto. Qed.

Lemma transfer_sound len sh s a succs :
  cons_state s a ->
  atransfer len (pc s) sh a = AOk succs ->
  match exec len sh s with
  | Stuck _ => False
  | Halt => True
  | Next l => Forall (covered succs) l
  end.
Proof.
  intros C T. pose proof C as (Hlo & Hbl & Hfc & Hdi & Hde & Hla).
  destruct sh as [e| |off|off dup| | | | | |];
    [apply atransfer_simple in T as [(G1 & G2 & G3 & G4) ->]|cbn [atransfer] in T..]; cbn [exec].
  -
    assert (D1 : e_need_dice e && (dice s =? 0) = false).
    { apply (guard_mono _ _ _ G1). rewrite !Nat.eqb_eq. lia. }
    assert (D2 : (h s <? e_pops e) = false) by (apply Nat.ltb_ge; lia).
    assert (D3 : e_need_det e && (dets s =? 0) = false).
    { apply (guard_mono _ _ _ G3). rewrite Nat.eqb_eq. intro Hz. destruct (a_det a); [specialize (Hde eq_refl); lia|reflexivity]. }
    assert (D4 : e_need_last e && negb (lastpop s) = false).
    { apply (guard_mono _ _ _ G4). destruct (a_last a); [rewrite (Hla eq_refl); discriminate|reflexivity]. }
    rewrite D1, D2, D3, D4. apply covered_one; [reflexivity|].
    unfold cons_state, simple_post; cbn. repeat split.
    + lia.
    + exact Hbl.
    + apply fchain_after; [lia|exact Hfc].
    + lia.
    + intro Hd. apply orb_true_iff in Hd as [Hd|Hd]; [specialize (Hde Hd); lia|destruct (e_det_up e); [discriminate|lia]].
    + intro Hl. apply orb_true_iff in Hl as [Hl|Hl]; [rewrite (Hla Hl); reflexivity|rewrite Hl; apply orb_true_r].
  -
    destruct (Nat.eqb_spec (a_lo a) 0); [discriminate|]. injection T as <-.
    rewrite (proj2 (Nat.eqb_neq (h s) 0)) by lia.
    apply covered_one; [reflexivity|exact C].
  -
    destruct (jump_target len (pc s) off) as [t|]; [|discriminate]. injection T as <-.
    apply covered_one; [reflexivity|exact C].
  -
    destruct (Nat.eqb_spec (a_lo a) 0); [discriminate|].
    destruct (jump_target len (pc s) off) as [t|]; [|discriminate]. injection T as <-.
    rewrite (proj2 (Nat.eqb_neq (h s) 0)) by lia.
    assert (P : forall p, cons_state {| pc := p; h := h s - 1; blocks := blocks s; fblocks := fblocks s; dice := dice s;
                                         dets := dets s; lastpop := true |} (popped a)).
    { intro p. unfold cons_state; cbn. repeat split; auto; try lia.
      rewrite <- (Nat.add_0_r (h s - 1)). apply fchain_after; [lia|exact Hfc]. }
    constructor; [|constructor; [|constructor]].
    + eexists; split; [left; reflexivity|]. apply P.
    + eexists; split; [right; left; reflexivity|]. destruct dup; [|apply P].
      unfold cons_state; cbn; repeat split; auto.
  - exact I.
  -
    injection T as <-. destruct (max_blocks <=? List.length (blocks s)); [constructor|].
    apply covered_one; [reflexivity|]. unfold cons_state; cbn; repeat split; auto.
  -
    destruct (a_blocks a) as [|b r] eqn:EB; [discriminate|]. injection T as <-.
    inversion Hbl as [|x y l l' Hxy Hrest]; subst.
    apply covered_one; [reflexivity|]. unfold cons_state; cbn; repeat split; auto; try lia.
    eapply fchain_head; [exact Hfc|]. intros d' Hd'; discriminate.
  -
    injection T as <-. destruct (max_blocks <=? List.length (fblocks s)); [constructor|].
    apply covered_one; [reflexivity|]. unfold cons_state; cbn; repeat split; auto. lia.
  -
    destruct (a_fb a) as [|[b dp] r] eqn:EB; [discriminate|].
    destruct ((a_lo a =? 0) && match a_fd a with None => true | Some _ => false end) eqn:E1; [discriminate|].
    injection T as <-.
    destruct (fblocks s) as [|sv fs] eqn:EF; cbn [fchain] in Hfc; [contradiction|].
    destruct Hfc as [F1 [F2 F3]].
    assert (H : negb (sv =? h s) && (h s =? 0) = false).
    { destruct (Nat.eqb_spec (h s) 0) as [Eh|]; [|apply andb_false_r].
      destruct (a_fd a) as [d|].
      - assert (sv = h s) by lia. subst sv. rewrite Nat.eqb_refl. reflexivity.
      - rewrite andb_true_r in E1. apply Nat.eqb_neq in E1. lia. }
    rewrite H. apply covered_one; [reflexivity|].
    unfold cons_state; cbn; repeat split; auto; try lia.
    + eapply fchain_head; [exact F3|].
      intros d' Hd'. destruct dp as [d|]; [|discriminate].
      injection Hd' as <-. exists d; split; auto. intros; lia.
    + intro Hl. rewrite (Hla Hl). reflexivity.
  - discriminate.
Qed.

Definition admits (A : annotation) (t : nat) (a : astate) : Prop :=
  exists x, nth_error A t = Some (Some x) /\ aleb a x = true.

Lemma admits_here A t a : nth_error A t = Some (Some a) -> admits A t a.
Proof. intro H. exists a; split; [exact H|apply aleb_refl]. Qed.

Lemma admits_weaken A t a a' : aleb a' a = true -> admits A t a -> admits A t a'.
Proof. intros Hle [x [Hx Hax]]. exists x; split; [exact Hx|eapply aleb_trans; eauto]. Qed.

Lemma succ_ok_iff A t a : succ_ok A (t, a) = true <-> admits A t a.
Proof.
  unfold succ_ok, admits. cbn [fst snd]. destruct (nth_error A t) as [[x|]|].
  - split; [eauto|]. intros [y [Hy H]]. injection Hy as <-. exact H.
  - split; [discriminate|]. intros [y [Hy _]]. discriminate.
  - split; [discriminate|]. intros [y [Hy _]]. discriminate.
Qed.

Lemma check_pc_iff c A q a i :
  nth_error A q = Some (Some a) -> nth_error c q = Some i ->
  (check_pc c A q = true <->
   exists sa, atransfer (List.length c) q (ishape i) a = AOk sa /\ forall t a', In (t, a') sa -> admits A t a').
Proof.
  intros HA HC. unfold check_pc. rewrite HA, HC.
  destruct (atransfer (List.length c) q (ishape i) a) as [r|sa].
  - split; [discriminate|]. intros [sa [H _]]. discriminate.
  - rewrite all_ok_iff. split.
    + intro H. exists sa; split; [reflexivity|]. intros t a' Hin. apply succ_ok_iff. exact (H _ Hin).
    + intros [sa' [E H]] [t a'] Hin. injection E as <-. apply succ_ok_iff. exact (H _ _ Hin).
Qed.

Lemma check_iff c A :
  check c A = true <-> admits A 0 a_init /\ forall q, q < List.length c -> check_pc c A q = true.
Proof.
  rewrite <- succ_ok_iff. unfold check, succ_ok. cbn [fst snd].
  destruct (nth_error A 0) as [[a0|]|]; [|split; [discriminate|intros [H _]; discriminate]..].
  destruct (aleb a_init a0); [|split; [discriminate|intros [H _]; discriminate]].
  rewrite all_ok_iff. split.
  - intro H. split; [reflexivity|]. intros q Hq. apply H, in_seq. lia.
  - intros [_ H] q Hq. apply H. apply in_seq in Hq. lia.
Qed.

Theorem verify_sound c annot :
  check c annot = true ->
  forall st, consistent annot st ->
  match sstep c st with
  | Stuck _ => False
  | Next l => Forall (consistent annot) l
  | Halt => True
  end.
Proof.
  intros CK st [a [Ha C]]. apply check_iff in CK as [_ CK].
  unfold sstep. destruct (nth_error c (pc st)) as [i|] eqn:Ei; [|exact I].
  assert (Hlt : pc st < List.length c) by (apply nth_error_Some; congruence).
  destruct (proj1 (check_pc_iff _ _ _ _ _ Ha Ei) (CK _ Hlt)) as [sa [ET Hs]].
  pose proof (transfer_sound _ _ _ _ _ C ET) as TS.
  destruct (exec (List.length c) (ishape i) st) as [l| |r]; auto.
  eapply Forall_impl; [|exact TS].
  intros s' [a' [Hin C']]. destruct (Hs _ _ Hin) as [x [Hx Hle]].
  exists x; split; [exact Hx|eapply aleb_sound; eauto].
Qed.

Theorem reachable_consistent c annot :
  check c annot = true -> forall st, reachable c st -> consistent annot st.
Proof.
  intros CK st R. induction R as [|s l s' R IH Hs Hin].
  - apply check_iff in CK as [[a0 [H0 Hle]] _]. exists a0; split; [exact H0|].
    eapply aleb_sound; [|exact Hle].
    unfold cons_state, a_init, init_state; cbn. repeat split; auto; discriminate.
  - pose proof (verify_sound c annot CK s IH) as V. rewrite Hs in V.
    rewrite Forall_forall in V. auto.
Qed.

Theorem no_stuck_reachable c annot :
  check c annot = true -> forall st, reachable c st -> forall r, sstep c st <> Stuck r.
Proof.
  intros CK st R r E.
  pose proof (verify_sound c annot CK st (reachable_consistent _ _ CK _ R)) as V.
  rewrite E in V. exact V.
Qed.

Theorem step_in_bounds c s l s' : pc s < List.length c -> sstep c s = Next l -> In s' l -> pc s' <= List.length c.
Proof.
  unfold sstep. intros Hlt. destruct (nth_error c (pc s)) as [i|]; [|discriminate]. intros H Hin.
  (* a successor sits at the next pc or at a jump target *)
  assert (One : forall s1, Next [s1] = Next l -> pc s1 <= List.length c -> pc s' <= List.length c).
  { intros s1 E Hs1. injection E as <-. destruct Hin as [<-|[]]. exact Hs1. }
  assert (J : forall off t, jump_target (List.length c) (pc s) off = Some t -> t <= List.length c).
  { intros off t E. apply jump_target_iff in E. apply E. }
  unfold exec in H. destruct (ishape i) as [e| |off|off dup| | | | | |].
  - destruct (e_need_dice e && (dice s =? 0)); [discriminate|].
    destruct (h s <? e_pops e); [discriminate|].
    destruct (e_need_det e && (dets s =? 0)); [discriminate|].
    destruct (e_need_last e && negb (lastpop s)); [discriminate|]. exact (One _ H Hlt).
  - destruct (h s =? 0); [discriminate|exact (One _ H Hlt)].
  - destruct (jump_target (List.length c) (pc s) off) eqn:E; [exact (One _ H (J _ _ E))|discriminate].
  - destruct (h s =? 0); [discriminate|].
    destruct (jump_target (List.length c) (pc s) off) eqn:E; [|discriminate].
    injection H as <-. destruct Hin as [<-|[<-|[]]]; [exact Hlt|exact (J _ _ E)].
  - discriminate.
  - destruct (max_blocks <=? List.length (blocks s)); [injection H as <-; destruct Hin|exact (One _ H Hlt)].
  - destruct (blocks s); [discriminate|exact (One _ H Hlt)].
  - destruct (max_blocks <=? List.length (fblocks s)); [injection H as <-; destruct Hin|exact (One _ H Hlt)].
  - destruct (fblocks s); [discriminate|].
    destruct (negb (n =? h s) && (h s =? 0)); [discriminate|exact (One _ H Hlt)].
  - discriminate.
Qed.

Lemma fchain_length : forall fs fes hh fd, fchain hh fd fs fes -> List.length fs = List.length fes.
Proof.
  induction fs as [|s fs IH]; intros [|[lb dp] fes] hh fd H; cbn [fchain List.length] in *; try contradiction; auto.
  destruct H as [_ [_ H]]. f_equal. eapply IH; eauto.
Qed.

Lemma forall2_length {A B} (R : A -> B -> Prop) l1 l2 : Forall2 R l1 l2 -> List.length l1 = List.length l2.
Proof. induction 1; cbn [List.length]; auto. Qed.

Theorem block_depth_unique c annot :
  check c annot = true ->
  forall s1 s2, reachable c s1 -> reachable c s2 -> pc s1 = pc s2 ->
  List.length (blocks s1) = List.length (blocks s2) /\ List.length (fblocks s1) = List.length (fblocks s2).
Proof.
  intros CK s1 s2 R1 R2 E.
  destruct (reachable_consistent _ _ CK _ R1) as [a1 [H1 C1]].
  destruct (reachable_consistent _ _ CK _ R2) as [a2 [H2 C2]].
  rewrite E, H2 in H1. injection H1 as <-.
  destruct C1 as [_ [B1 [F1 _]]]. destruct C2 as [_ [B2 [F2 _]]].
  split.
  - rewrite <- (forall2_length _ _ _ B1), <- (forall2_length _ _ _ B2). reflexivity.
  - rewrite (fchain_length _ _ _ _ F1), (fchain_length _ _ _ _ F2). reflexivity.
Qed.

Theorem verify_has_annotation c : verify c = true -> exists annot, check c annot = true.
Proof.
  unfold verify. destruct (infer c) as [[annot ch|p r]|]; try discriminate.
  intro H. exists annot. exact H.
Qed.

Theorem verify_all_subprograms c :
  verify_all c = true -> forall b, subprogram c b -> verify b = true /\ all_ok body_ok b = true.
Proof.
  unfold verify_all. intros H b S. induction S as [c|c c' t n o b S IH Hin].
  - destruct (verify c); [|discriminate]. split; auto.
  - destruct (IH H) as [_ Hall]. pose proof (proj1 (all_ok_iff _ _) Hall _ Hin) as Hb. cbn [body_ok] in Hb.
    destruct (verify b); [|discriminate]. split; auto.
Qed.

Theorem verify_all_safe c :
  verify_all c = true ->
  forall b, subprogram c b ->
  (forall st, reachable b st -> forall r, sstep b st <> Stuck r) /\
  (forall s1 s2, reachable b s1 -> reachable b s2 -> pc s1 = pc s2 ->
     List.length (blocks s1) = List.length (blocks s2) /\ List.length (fblocks s1) = List.length (fblocks s2)).
Proof.
  intros H b S.
  destruct (verify_all_subprograms c H b S) as [Hv _].
  destruct (verify_has_annotation b Hv) as [annot CK].
  split.
  - intros st R. eapply no_stuck_reachable; eauto.
  - eapply block_depth_unique; eauto.
Qed.

Module Examples.
  Open Scope string_scope.
  Definition I (t : nat) (n : string) (o : operand) : instr := Instr (N.of_nat t) n o None.

  (* dump of: i=0; while i<5 { i=i+1; if i==2 { break }; r = `a{2d6}b` }; r
     (a loop, an if inside it, a break that closes the if's block, a template hole, a dice term) *)
  Definition ex_loop : code :=
    [ I 0 "push.int" (PInt 0); I 17 "store" PStr; I 82 "block.push" PNil; I 71 "mark.detail" PSpan; I 15 "ld.d" PStr;
      I 0 "push.int" (PInt 5); I 35 "comp.lt" PNil; I 77 "jne" (PInt 28); I 71 "mark.detail" PSpan; I 15 "ld.d" PStr;
      I 0 "push.int" (PInt 1); I 28 "add" PNil; I 17 "store" PStr; I 71 "mark.detail" PSpan; I 15 "ld.d" PStr;
      I 0 "push.int" (PInt 2); I 37 "comp.eq" PNil; I 82 "block.push" PNil; I 77 "jne" (PInt 3); I 83 "block.pop" PNil;
      I 75 "jmp" (PInt 15); I 75 "jmp" (PInt 0); I 83 "block.pop" PNil; I 2 "push.str" PStr; I 80 "fstr.block.push" PNil;
      I 0 "push.int" (PInt 2); I 47 "dice.init" PNil; I 48 "dice.setTimes" PNil; I 0 "push.int" (PInt 6);
      I 71 "mark.detail" PSpan; I 55 "dice" PNil; I 81 "fstr.block.pop" PNil; I 2 "push.str" PStr; I 13 "ld.fs" (PInt 3);
      I 17 "store" PStr; I 75 "jmp" (PInt (-33)); I 83 "block.pop" PNil; I 71 "mark.detail" PSpan; I 15 "ld.d" PStr;
      I 70 "halt" PNil ].

  Example ex_loop_accepted : verify ex_loop = true /\ names_ok ex_loop = true.
  Proof. split; vm_compute; reflexivity. Qed.

  (* a function whose body rolls default-sides dice: func g() { return 2d }; g() *)
  Definition ex_func : code :=
    [ Instr 10 "push.func" PFn
            (Some [ I 0 "push.int" (PInt 2); I 47 "dice.init" PNil; I 48 "dice.setTimes" PNil; I 71 "mark.detail" PSpan;
                    I 12 "push.def_expr" PNil; I 55 "dice" PNil; I 79 "ret" PNil ]);
      I 17 "store" PStr; I 71 "mark.detail" PSpan; I 15 "ld.d" PStr; I 20 "invoke" (PInt 0); I 70 "halt" PNil ].

  Example ex_func_accepted : verify_all ex_func = true /\ count_bodies ex_func = 1.
  Proof. split; vm_compute; reflexivity. Qed.

  (* the template hole at the bottom of the stack whose statement leaves nothing: `{x.a=1}` --
     fstr.block.pop must not pop here, and the verifier knows (relative fact h >= saved) *)
  Definition ex_hole : code :=
    [ I 80 "fstr.block.push" PNil; I 0 "push.int" (PInt 1); I 14 "ld" PStr; I 25 "attr.set" PStr;
      I 81 "fstr.block.pop" PNil; I 13 "ld.fs" (PInt 1); I 70 "halt" PNil ].
  Example ex_hole_accepted : verify ex_hole = true.
  Proof. vm_compute; reflexivity. Qed.

  (* rejected: [1 ? 2, 3] compiled so that the taken arm jumps over the second element *)
  Definition ex_underflow : code :=
    [ I 0 "push.int" (PInt 1); I 77 "jne" (PInt 2); I 0 "push.int" (PInt 2); I 75 "jmp" (PInt 2);
      I 0 "push.int" (PInt 3); I 2 "push.str" PStr; I 3 "push.arr" (PInt 2); I 70 "halt" PNil ].
  Example ex_underflow_rejected : diagnose ex_underflow = DReject 6 Underflow.
  Proof. vm_compute; reflexivity. Qed.
  Example ex_underflow_stuck :
    exists s, reachable ex_underflow s /\ sstep ex_underflow s = Stuck Underflow.
  Proof.
    exists {| pc := 6; h := 1; blocks := []; fblocks := []; dice := 0; dets := 0; lastpop := true |}.
    split; [|vm_compute; reflexivity].
    eapply reach_step with (s := {| pc := 3; h := 1; blocks := []; fblocks := []; dice := 0; dets := 0; lastpop := true |});
      [|vm_compute; reflexivity|left; reflexivity].
    eapply reach_step with (s := {| pc := 2; h := 0; blocks := []; fblocks := []; dice := 0; dets := 0; lastpop := true |});
      [|vm_compute; reflexivity|left; reflexivity].
    eapply reach_step with (s := {| pc := 1; h := 1; blocks := []; fblocks := []; dice := 0; dets := 0; lastpop := false |});
      [|vm_compute; reflexivity|left; reflexivity].
    eapply reach_step with (s := init_state); [constructor|vm_compute; reflexivity|left; reflexivity].
  Qed.

  Definition ex_badjump : code := [ I 0 "push.int" (PInt 1); I 75 "jmp" (PInt 5); I 70 "halt" PNil ].
  Example ex_badjump_rejected : diagnose ex_badjump = DReject 1 BadJump.
  Proof. vm_compute; reflexivity. Qed.
  Definition ex_badjump_back : code := [ I 0 "push.int" (PInt 1); I 75 "jmp" (PInt (-3)); I 70 "halt" PNil ].
  Example ex_badjump_back_rejected : diagnose ex_badjump_back = DReject 1 BadJump.
  Proof. vm_compute; reflexivity. Qed.

  Definition ex_niljump : code := [ I 0 "push.int" (PInt 1); I 78 "je.dup" PNil; I 70 "halt" PNil ].
  Example ex_niljump_rejected : diagnose ex_niljump = DReject 1 BadOperand.
  Proof. vm_compute; reflexivity. Qed.

  (* NOT detectable as such: a jump left at the placeholder offset 0 is a legal jump to the next
     instruction (`if 1 {}` compiles to a genuine `jmp 0`).  The verifier only sees its consequences:
     `y = 0 || [` leaves `je.dup 0`, the falsy path loses the value, and `store` underflows. *)
  Definition ex_unpatched : code :=
    [ I 0 "push.int" (PInt 0); I 78 "je.dup" (PInt 0); I 17 "store" PStr; I 70 "halt" PNil ].
  Example ex_unpatched_rejected : diagnose ex_unpatched = DReject 2 Underflow.
  Proof. vm_compute; reflexivity. Qed.
  Definition ex_unpatched_harmless : code := [ I 0 "push.int" (PInt 0); I 78 "je.dup" (PInt 0); I 70 "halt" PNil ].
  Example ex_unpatched_not_detected : verify ex_unpatched_harmless = true.
  Proof. vm_compute; reflexivity. Qed.

  Definition ex_mismatch : code :=
    [ I 0 "push.int" (PInt 1); I 77 "jne" (PInt 1); I 82 "block.push" PNil; I 70 "halt" PNil ].
  Example ex_mismatch_rejected : diagnose ex_mismatch = DReject 3 BlockMismatch.
  Proof. vm_compute; reflexivity. Qed.
  Example ex_mismatch_real :
    exists s1 s2, reachable ex_mismatch s1 /\ reachable ex_mismatch s2 /\ pc s1 = pc s2 /\
                  List.length (blocks s1) <> List.length (blocks s2).
  Proof.
    exists {| pc := 3; h := 0; blocks := [0]; fblocks := []; dice := 0; dets := 0; lastpop := true |},
           {| pc := 3; h := 0; blocks := []; fblocks := []; dice := 0; dets := 0; lastpop := true |}.
    assert (R1 : reachable ex_mismatch {| pc := 1; h := 1; blocks := []; fblocks := []; dice := 0; dets := 0; lastpop := false |}).
    { eapply reach_step with (s := init_state); [constructor|vm_compute; reflexivity|left; reflexivity]. }
    repeat split.
    - eapply reach_step with (s := {| pc := 2; h := 0; blocks := []; fblocks := []; dice := 0; dets := 0; lastpop := true |});
        [|vm_compute; reflexivity|left; reflexivity].
      eapply reach_step; [exact R1|vm_compute; reflexivity|left; reflexivity].
    - eapply reach_step; [exact R1|vm_compute; reflexivity|right; left; reflexivity].
    - simpl. discriminate.
  Qed.

  Example ex_nodice_rejected : diagnose [ I 0 "push.int" (PInt 6); I 71 "mark.detail" PSpan; I 55 "dice" PNil ] = DReject 2 NoDiceState.
  Proof. vm_compute; reflexivity. Qed.
  Example ex_nodetail_rejected : diagnose [ I 15 "ld.d" PStr; I 70 "halt" PNil ] = DReject 0 NoDetail.
  Proof. vm_compute; reflexivity. Qed.
  Example ex_noblock_rejected : diagnose [ I 83 "block.pop" PNil; I 70 "halt" PNil ] = DReject 0 BlockUnderflow.
  Proof. vm_compute; reflexivity. Qed.
End Examples.

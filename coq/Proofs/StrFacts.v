(* Strings: append, "every character satisfies P", splitting where a character class ends; and the
   decimal rendering show_Z: its characters, and that it is injective.  Used by the proofs about the
   dice texts and about the detail text. *)
From Coq Require Import String Ascii ZArith List Bool Lia.
From Coq Require Import Decimal DecimalString DecimalPos DecimalZ.
From DS Require Import Model.Str.
Import ListNotations.
Local Open Scope string_scope.

Lemma sapp_nil_r (s : string) : s ++ "" = s.
Proof. induction s as [|c s IH]; cbn [append]; [reflexivity|]. rewrite IH. reflexivity. Qed.

Lemma sapp_assoc (a b c : string) : (a ++ b) ++ c = a ++ (b ++ c).
Proof. induction a as [|ch a IH]; cbn [append]; [reflexivity|]. rewrite IH. reflexivity. Qed.

Lemma slen_app (a b : string) : String.length (a ++ b) = String.length a + String.length b.
Proof. induction a as [|ch a IH]; cbn [append String.length]; [reflexivity|]. rewrite IH. reflexivity. Qed.

Lemma sapp_inv_head (a b c : string) : a ++ b = a ++ c -> b = c.
Proof. induction a as [|x a IH]; cbn [append]; intros H; [exact H|]. inversion H. apply IH; assumption. Qed.

Lemma sapp_inv_tail (a : string) : forall b c, a ++ c = b ++ c -> a = b.
Proof.
  induction a as [|x a IH]; intros [|y b] c E; cbn [append] in E.
  - reflexivity.
  - apply (f_equal String.length) in E. cbn [String.length] in E. rewrite slen_app in E. lia.
  - apply (f_equal String.length) in E. cbn [String.length] in E. rewrite slen_app in E. lia.
  - injection E as -> E. f_equal. exact (IH _ _ E).
Qed.

Lemma join_cons sep x l :
  join sep (x :: l) = x ++ match l with [] => "" | _ :: _ => sep ++ join sep l end.
Proof. destruct l as [|y l]; cbn [join]; [rewrite sapp_nil_r|]; reflexivity. Qed.

Fixpoint allc (P : ascii -> bool) (s : string) : bool :=
  match s with EmptyString => true | String a r => P a && allc P r end.

Definition head_not (P : ascii -> bool) (t : string) : bool :=
  match t with EmptyString => true | String c _ => negb (P c) end.

Lemma allc_app P a b : allc P (a ++ b) = allc P a && allc P b.
Proof.
  induction a as [|x a IH]; cbn [append allc]; [reflexivity|]. rewrite IH, andb_assoc. reflexivity.
Qed.

Lemma allc_impl (P Q : ascii -> bool) s :
  (forall a, P a = true -> Q a = true) -> allc P s = true -> allc Q s = true.
Proof.
  intros HPQ. induction s as [|x s IH]; cbn [allc]; [reflexivity|].
  intros H. apply andb_true_iff in H. destruct H as [H1 H2].
  rewrite (HPQ _ H1), (IH H2). reflexivity.
Qed.

Lemma split_tok P a : forall a' t t',
  allc P a = true -> allc P a' = true -> head_not P t = true -> head_not P t' = true ->
  a ++ t = a' ++ t' -> a = a' /\ t = t'.
Proof.
  induction a as [|x a IH]; intros a' t t' Ha Ha' Ht Ht' E; destruct a' as [|y a'];
    cbn [append allc] in *.
  - split; [reflexivity|exact E].
  - exfalso. subst t. cbn [head_not] in Ht. apply andb_true_iff in Ha'. destruct Ha' as [Hy _].
    rewrite Hy in Ht. discriminate.
  - exfalso. subst t'. cbn [head_not] in Ht'. apply andb_true_iff in Ha. destruct Ha as [Hx _].
    rewrite Hx in Ht'. discriminate.
  - inversion E; subst y. apply andb_true_iff in Ha. apply andb_true_iff in Ha'.
    destruct (IH a' t t' (proj2 Ha) (proj2 Ha') Ht Ht' H1) as [-> ->]. split; reflexivity.
Qed.

Definition numc (a : ascii) : bool :=
  existsb (Ascii.eqb a) (list_ascii_of_string "-0123456789").

Lemma uint_numc d : allc numc (NilEmpty.string_of_uint d) = true.
Proof. induction d; cbn [NilEmpty.string_of_uint allc]; rewrite ?IHd; reflexivity. Qed.

Lemma nz_uint_numc d :
  allc numc (NilZero.string_of_uint d) = true /\ NilZero.string_of_uint d <> "".
Proof.
  destruct d; cbn [NilZero.string_of_uint NilEmpty.string_of_uint allc];
    rewrite ?uint_numc; split; (reflexivity || discriminate).
Qed.

Lemma show_Z_chars z : allc numc (show_Z z) = true /\ show_Z z <> "".
Proof.
  unfold show_Z. destruct z as [|p|p]; cbn [Z.to_int NilZero.string_of_int].
  - apply nz_uint_numc.
  - apply nz_uint_numc.
  - destruct (nz_uint_numc (Pos.to_uint p)) as [H _].
    cbn [allc]. rewrite H. split; [reflexivity|discriminate].
Qed.

Lemma show_Z_numc z : allc numc (show_Z z) = true.
Proof. apply show_Z_chars. Qed.

Lemma show_Z_head z : exists c r, show_Z z = String c r /\ numc c = true /\ allc numc r = true.
Proof.
  destruct (show_Z_chars z) as [H1 H2]. destruct (show_Z z) as [|c r]; [congruence|].
  cbn [allc] in H1. apply andb_true_iff in H1. exists c, r. tauto.
Qed.

Lemma to_int_nonnil z : Z.to_int z <> Pos Nil /\ Z.to_int z <> Neg Nil.
Proof.
  destruct z as [|p|p]; cbn [Z.to_int]; split; try discriminate;
    intros [= E]; exact (Unsigned.to_uint_nonnil p E).
Qed.

Theorem show_Z_inj x y : show_Z x = show_Z y -> x = y.
Proof.
  unfold show_Z. intros H.
  apply (f_equal NilZero.int_of_string) in H.
  destruct (to_int_nonnil x) as [X1 X2]. destruct (to_int_nonnil y) as [Y1 Y2].
  rewrite !NilZero.isi in H by assumption.
  rewrite <- (DecimalZ.of_to x), <- (DecimalZ.of_to y). congruence.
Qed.

Lemma show_Z_framed_inj (q pre pre' post post' : string) x y :
  head_not numc q = true ->
  (pre = "" \/ pre = q) -> (pre' = "" \/ pre' = q) ->
  head_not numc post = true -> head_not numc post' = true ->
  pre ++ show_Z x ++ post = pre' ++ show_Z y ++ post' -> x = y /\ pre = pre' /\ post = post'.
Proof.
  intros Hq Hp Hp' Ht Ht' E.
  destruct (show_Z_head x) as (cx & rx & Ex & Hcx & _). destruct (show_Z_head y) as (cy & ry & Ey & Hcy & _).
  assert (E' : pre = pre' /\ show_Z x ++ post = show_Z y ++ post').
  { destruct q as [|c q]; [destruct Hp as [-> | ->]; destruct Hp' as [-> | ->]; split; trivial|].
    cbn [head_not] in Hq. apply negb_true_iff in Hq.
    destruct Hp as [-> | ->]; destruct Hp' as [-> | ->]; cbn [append] in E.
    - split; trivial.
    - rewrite Ex in E. cbn [append] in E. injection E as -> _. congruence.
    - rewrite Ey in E. cbn [append] in E. injection E as <- _. congruence.
    - injection E as E. apply sapp_inv_head in E. split; trivial. }
  destruct E' as [Epre E'].
  apply (split_tok numc) in E'; [|apply show_Z_numc|apply show_Z_numc|assumption|assumption].
  destruct E' as [E1 E2]. split; [exact (show_Z_inj _ _ E1)|]. split; assumption.
Qed.

Print Assumptions show_Z_inj.

(* C01 (VM half): well-formed byte-code never makes the VM model reach a Go panic site;
   C07 (VM half): the operation budget fails closed.
   Everything here is ABOUT Model/VM.v (validated against the implementation by the K2 correspondence).
   Three parts: C01, the walk of the frame's control fields (well-formed code: no panic but the two that depend on
   a value); C07, the operation counter; C01 again, where values come from (no instruction creates the value the second
   of those panics needs).  C01_exec_no_panic_partial rests on the first and the third.
   Each pass over the instruction set keeps one invariant of frame and world: `step` is unfolded on one
   opcode at a time and its continuation-passing structure is walked with one lemma per helper
   (lift, do_push, the operations), so the order of the `match` branches does not matter. *)
From Coq Require Import String Ascii NArith ZArith List Bool Lia.
From DS Require Import Model.Str Model.PCG Model.Roll Model.Dice Model.Value Model.VM Model.CodeWf Proofs.VMFacts.
Import ListNotations.
Open Scope Z_scope.

(* The two Panic sites of the model that do not depend on the byte-code but on a VALUE that the Go
   program cannot construct: see C01_run_no_panic_refuted_*. *)
Definition range_msg : string := "index out of range (push.range)".
Definition nilself_msg : string := "nil Self".
Definition allowed (s : string) : Prop := s = range_msg \/ s = nilself_msg.

Definition res_ok (r : result) : Prop := match r with Panic s => allowed s | _ => True end.

(* What a pass claims of the result of an operation and of an instruction: K / N, S of what it
   hands on, Pn of the message when it panics; a recorded error ends the claim. *)
Definition rsat {A} (K : A -> world -> Prop) (Pn : string -> Prop) (r : R A) : Prop :=
  match r with ROk a w => K a w | RPanic s => Pn s | _ => True end.
Definition ssat (N S : machine -> Prop) (Pn : string -> Prop) (r : sresult) : Prop :=
  match r with SNext m => N m | SStop m => S m | SPanic s => Pn s | _ => True end.

Lemma rsat_rbind : forall A B (K : A -> world -> Prop) (K' : B -> world -> Prop) Pn (r : R A) (k : A -> world -> R B),
  rsat K Pn r -> (forall a w, K a w -> rsat K' Pn (k a w)) -> rsat K' Pn (rbind r k).
Proof. intros A B K K' Pn r k H1 H2. destruct r; cbn in *; auto. Qed.

Lemma rsat_rmapw : forall A (K K' : A -> world -> Prop) Pn (f : world -> world) (r : R A),
  (forall a w, K a w -> K' a (f w)) -> rsat K Pn r -> rsat K' Pn (rmapw f r).
Proof. intros A K K' Pn f r Hf H. destruct r; cbn in *; auto. Qed.

Lemma ssat_lift : forall A (K : A -> world -> Prop) N S Pn (r : R A) fr k,
  rsat K Pn r -> (forall a w, K a w -> ssat N S Pn (k a w)) -> ssat N S Pn (lift r fr k).
Proof. intros A K N S Pn r fr k H1 H2. destruct r; cbn in *; auto. unfold check_err. destruct (fr_err fr); cbn; auto. Qed.

Notation rok := (rsat (fun _ _ => True) allowed).

Lemma code_wf_from_nth : forall len c pc k i,
  code_wf_from len pc c = true -> nth_error c k = Some i -> instr_wf len (pc + k) i = true.
Proof.
  induction c as [|a c IH]; intros pc k i H Hn.
  - destruct k; discriminate.
  - cbn [code_wf_from] in H. apply andb_true_iff in H. destruct H as [H1 H2]. destruct k as [|k].
    + cbn in Hn. injection Hn as <-. rewrite Nat.add_0_r. exact H1.
    + cbn [nth_error] in Hn. replace (pc + S k)%nat with (S pc + k)%nat by lia. eapply IH; eauto.
Qed.

Lemma code_wf_nth : forall c k i, code_wf c = true -> nth_error c k = Some i -> instr_wf (length c) k i = true.
Proof. unfold code_wf; intros c k i H Hn. exact (code_wf_from_nth _ _ 0%nat _ _ H Hn). Qed.

Lemma ftab_wf_lookup : forall ft id d c, ftab_wf ft = true -> f_lookup ft id = Some d -> f_code d = Some c ->
  code_wf c = true.
Proof.
  unfold ftab_wf, f_lookup; intros ft id d c H Hl Hc. rewrite forallb_forall in H.
  specialize (H d (nth_error_In _ _ Hl)). unfold fentry_wf in H. rewrite Hc in H. exact H.
Qed.

Definition frame_ok (c : code) (src : option string) (fr : frame) : Prop :=
  fr_code fr = c /\ fr_src fr = src /\ fr_top fr <= stack_size /\
  Forall (fun t => t < stack_size) (fr_blocks fr) /\ Forall (fun t => t < stack_size) (fr_fblocks fr).

Definition machine_ok (m : machine) : Prop :=
  let fr := m_fr m in
  code_wf (fr_code fr) = true /\
  frame_ok (fr_code fr) (fr_src fr) fr /\ 0 <= fr_pc fr.

Definition callee_ok (call : machine -> result) : Prop := forall m, machine_ok m -> res_ok (call m).

Lemma new_frame_ok : forall c src, frame_ok c src (new_frame c src).
Proof. intros; unfold frame_ok, new_frame, stack_size; cbn. repeat split; try constructor; lia. Qed.

Lemma new_frame_machine_ok : forall c src w, code_wf c = true ->
  machine_ok {| m_fr := new_frame c src; m_w := w |}.
Proof.
  intros c src w H1. unfold machine_ok; cbn [m_fr]. change (fr_code (new_frame c src)) with c.
  change (fr_src (new_frame c src)) with src. split; [exact H1|]. split; [apply new_frame_ok|].
  cbn; lia.
Qed.

(* frame_ok and the frame setters, down to the fields *)
Ltac fr_unfold :=
  unfold frame_ok, jump, fr_set_stack, fr_set_pc, fr_set_blocks, fr_set_dice, fr_set_wod, fr_set_dc,
         fr_set_details, fr_set_err, mk in *;
  cbn [fr_code fr_pc fr_live fr_dead fr_top fr_last fr_blocks fr_fblocks fr_dice fr_wod fr_dc fr_details
       fr_src fr_err m_fr m_w] in *.

Create HintDb rok.

Section StepSafety.
  Variable call : machine -> result.
  Variable rfuel : nat.
  Variable E : env.
  Variable c : code.
  Variable src : option string.
  Variable pc0 : Z.
  Hypothesis Hpc0 : 0 <= pc0.
  Hypothesis Hft : ftab_wf (e_ftab E) = true.
  Hypothesis Hcall : callee_ok call.

  Definition mid (fr : frame) : Prop := frame_ok c src fr /\ fr_top fr < stack_size /\ fr_pc fr = pc0.
  Definition ready (fr : frame) : Prop := frame_ok c src fr /\ fr_top fr < stack_size /\ -1 <= fr_pc fr.
  Definition post (fr : frame) : Prop := frame_ok c src fr /\ -1 <= fr_pc fr.

  (* what the walk shows of an instruction's result: the frame handed back to the loop is `post` (the loop adds 1 to
     its pc, hence -1 <=), a panic is one of the two allowed ones *)
  Notation Q := (ssat (fun m => post (m_fr m)) (fun _ => True) allowed).

  Lemma mid_ready : forall fr, mid fr -> ready fr.
  Proof. unfold mid, ready; intros fr (H1 & H2 & H3); split; [exact H1|split; [exact H2|lia]]. Qed.
  Lemma ready_post : forall fr, ready fr -> post fr.
  Proof. unfold ready, post; tauto. Qed.

  (* the dice states: upd_dice after a pop finds the state need_dice saw *)
  Lemma pop_mid : forall fr v fr1, mid fr -> pop fr = (v, fr1) -> mid fr1 /\ fr_dice fr1 = fr_dice fr.
  Proof.
    unfold pop, err_invalid, mid; intros fr v fr1 H.
    destruct (fr_live fr); intros [= <- <-]; [destruct (fr_err fr)|]; fr_unfold; intuition lia.
  Qed.

  Lemma pop_n_mid : forall n fr l fr1, mid fr -> pop_n n fr = (l, fr1) -> mid fr1 /\ fr_dice fr1 = fr_dice fr.
  Proof.
    intros n fr l fr1 H Hp.
    refine (proj2 (pop_n_keeps (fun f => mid f /\ fr_dice f = fr_dice fr) (fun _ => True) _ _ n fr l fr1 (conj H eq_refl) Hp)).
    - intros f v f1 [H0 D0] Hp0. destruct (pop_mid _ _ _ H0 Hp0) as [H1 D1]. rewrite D0 in D1. auto.
    - intros f l0 H0 _. unfold mid in *. fr_unfold. exact H0.
  Qed.

  Lemma set_top_mid : forall fr t fr1, mid fr -> t < stack_size -> set_top fr t = Some fr1 ->
    mid fr1 /\ fr_dice fr1 = fr_dice fr /\ fr_blocks fr1 = fr_blocks fr /\ fr_fblocks fr1 = fr_fblocks fr.
  Proof.
    unfold set_top; intros fr t fr1 H Ht. destruct (t <=? fr_top fr).
    - destruct (lower_top _ _ _) as [l d]. intros [= <-]. unfold mid in *. fr_unfold. intuition lia.
    - destruct (raise_top _ _ _) as [[l d]|]; [|discriminate]. intros [= <-]. unfold mid in *. fr_unfold. intuition lia.
  Qed.

  Lemma last_detail_mid : forall fr, mid fr -> mid (last_detail fr) /\ fr_dice (last_detail fr) = fr_dice fr.
  Proof.
    unfold last_detail; intros fr H. destruct (fr_details fr) eqn:Hd; auto; unfold mid in *; fr_unfold;
    intuition auto.
  Qed.

  Lemma jump_ready : forall fr off, mid fr -> -1 <= pc0 + off -> ready (jump fr off).
  Proof. unfold mid, ready; intros fr off H Ho. fr_unfold. intuition lia. Qed.

  Lemma Q_do_push : forall v fr w, ready fr -> Q (do_push v fr w).
  Proof.
    unfold do_push, push, ready; intros v fr w (H1 & H2 & H3).
    replace (stack_size <=? fr_top fr) with false by (symmetry; apply Z.leb_gt; lia).
    cbn [ssat mk m_fr]. unfold post. fr_unfold. intuition lia.
  Qed.

  (* rok_tac goes down to the leaves; an operation met on the way is closed by its own lemma (database rok),
     the small ones without one are unfolded in place. *)
  Ltac rok_tac :=
    repeat (cbv zeta; lazymatch goal with
      | |- rok (if ?b then _ else _) => destruct b
      | |- rok (match ?x with _ => _ end) => destruct x
      | |- rok (rbind _ _) => apply rsat_rbind with (K := fun _ _ => True); [|intros ? ? _]
      | |- rok (RPanic _) => first [left; reflexivity | right; reflexivity]
      | |- _ => first [exact Logic.I | solve [auto with rok nocore]
                      | progress unfold load_local, new_arr, str_of, roll1, array_repeat]
      end).

  (* the sub-VM of a call runs a body of the table on a fresh frame: Hcall speaks of its panics *)
  Lemma sub_outcome_ok : forall osub put r, (forall sub, osub = Some sub -> machine_ok sub) ->
    sub_outcome call osub put r -> rok r.
  Proof.
    intros osub put r Hok H. destruct r; try exact Logic.I. destruct H as (sub & Hs & Hc).
    pose proof (Hcall sub (Hok sub Hs)) as Hp. rewrite Hc in Hp. exact Hp.
  Qed.

  Lemma computed_execute_ok : forall cid k w, rok (computed_execute call E cid k w).
  Proof.
    intros cid k w. refine (sub_outcome_ok _ _ _ _ (computed_execute_inv call E cid k w)). intros sub Hs.
    destruct (ce_sub_Some _ _ _ _ _ Hs) as (d & body & ws & Hl & Hb & -> & _).
    exact (new_frame_machine_ok _ _ _ (ftab_wf_lookup _ _ _ _ Hft Hl Hb)).
  Qed.

  Lemma func_invoke_ok : forall fid args w, rok (func_invoke call E fid args w).
  Proof.
    intros fid args w. refine (sub_outcome_ok _ _ _ _ (func_invoke_inv call E fid args w)). intros sub Hs.
    destruct (fi_sub_Some _ _ _ _ _ Hs) as (d & body & ws & Hl & Hb & -> & _).
    exact (new_frame_machine_ok _ _ _ (ftab_wf_lookup _ _ _ _ Hft Hl Hb)).
  Qed.
  Hint Resolve computed_execute_ok func_invoke_ok : rok.

  Lemma load_walk_ok : forall n k name isRaw w, rok (load_walk call E n k name isRaw w).
  Proof.
    induction n; intros k name isRaw w; cbn [load_walk]; [exact Logic.I|].
    destruct (nth_error (w_chain w) k); [|exact Logic.I]. cbv zeta.
    apply rsat_rbind with (K := fun _ _ => True).
    - apply rsat_rmapw with (K := fun _ _ => True); [auto|]. rok_tac.
    - intros v w' _. destruct v; try exact Logic.I. apply IHn.
  Qed.
  Lemma load_name_ok : forall name isRaw w, rok (load_name call E name isRaw w).
  Proof. intros; apply load_walk_ok. Qed.

  Lemma shuffle_ok : forall l w, rok (shuffle l w).
  Proof.
    intros l w; unfold shuffle. generalize (pred (length l)) as i. intros i; revert l w.
    induction i; intros l w; cbn [shuffle_loop]; [exact Logic.I|].
    apply rsat_rbind with (K := fun _ _ => True); [unfold roll1; rok_tac|]. intros; apply IHi.
  Qed.
  Hint Resolve load_name_ok shuffle_ok : rok.

  Lemma attr_get_ok : forall v name w, rok (attr_get call E v name w).
  Proof. intros; unfold attr_get. rok_tac. Qed.
  Lemma attr_set_ok : forall v name x w, rok (attr_set v name x w).
  Proof. intros; unfold attr_set. rok_tac. Qed.
  Lemma item_get_ok : forall a b w, rok (item_get a b w).
  Proof. intros; unfold item_get. rok_tac. Qed.
  Lemma item_set_ok : forall a b x w, rok (item_set a b x w).
  Proof. intros; unfold item_set. rok_tac. Qed.
  Lemma slice_get_ok : forall o a b w, rok (slice_get o a b w).
  Proof. intros; unfold slice_get. rok_tac. Qed.
  Lemma slice_set_ok : forall o a b x w, rok (slice_set o a b x w).
  Proof. intros; unfold slice_set. rok_tac. Qed.
  Lemma bin_op_ok : forall op v1 v2 w, rok (bin_op rfuel E op v1 v2 w).
  Proof. intros; unfold bin_op. rok_tac. Qed.
  (* push.range: the only panic is the model's "index out of range" (reachable only when an operand
     is not an int64, see push_range_no_panic_i64 below) *)
  Lemma push_range_ok : forall a b w, rok (push_range a b w).
  Proof. intros; unfold push_range. rok_tac. Qed.
  Lemma native_call_ok : forall name self args w, rok (native_call call E name self args w).
  Proof. intros; unfold native_call. rok_tac. Qed.
  Hint Resolve attr_get_ok attr_set_ok item_get_ok item_set_ok slice_get_ok slice_set_ok bin_op_ok push_range_ok
    native_call_ok : rok.

  Definition step_safe (op : opcode) : Prop :=
    forall o m len, mid (m_fr m) -> instr_wf len (Z.to_nat pc0) (I op o) = true ->
                    Q (step call rfuel E (I op o) m).

  (* mid / ready / post of a frame built by setters from frames known to be mid: field by field *)
  Ltac fr_solve :=
    unfold mid, ready, post in *; fr_unfold;
    repeat match goal with H : _ /\ _ |- _ => destruct H end;
    repeat split; try assumption; try lia; try congruence;
    try (constructor; first [assumption | lia]).

  (* a pop just destructed: the frame it leaves is mid again *)
  Ltac q_fact :=
    repeat match goal with
    | Hm : mid ?fr, Hp : pop ?fr = (_, _) |- _ =>
      let H1 := fresh "Hm" in let H2 := fresh "Hd" in destruct (pop_mid _ _ _ Hm Hp) as [H1 H2]; clear Hp
    | Hm : mid ?fr, Hp : pop_n _ ?fr = (_, _) |- _ =>
      let H1 := fresh "Hm" in let H2 := fresh "Hd" in destruct (pop_n_mid _ _ _ _ Hm Hp) as [H1 H2]; clear Hp
    end.

  (* the operation under a lift; where step has inspected its result first, H says which operation it was *)
  Ltac q_rok :=
    first [ exact Logic.I | solve [auto with rok nocore]
          | match goal with H : _ = ?r |- rok ?r => rewrite <- H; solve [auto with rok nocore] end ].

  Ltac q_ready :=   (* the frame that is pushed on *)
    first [ apply mid_ready; assumption
          | apply mid_ready, last_detail_mid; first [assumption | fr_solve]
          | fr_solve ].

  (* the walk: the head of the goal says which lemma applies *)
  Ltac q_go :=
    repeat (cbv beta iota zeta; lazymatch goal with
      | |- Q (do_push _ _ _) => apply Q_do_push; q_ready
      | |- Q (SNext ?m2) => change (post (m_fr m2)); first [apply ready_post; q_ready | fr_solve]
      | |- Q (lift _ _ _) => apply (ssat_lift _ (fun _ _ => True)); [q_rok | intros ? ? _]
      | |- Q (if ?b then _ else _) => destruct b eqn:?
      | |- Q (match ?x with _ => _ end) => destruct x eqn:?; q_fact
      | |- _ => first [exact Logic.I | exfalso; congruence]
      end).

  (* `step` on this opcode; instr_wf fixes the shape of the operand and, for a jump, gives -1 <= pc0 + offset *)
  Ltac q_start :=
    intros o m len Hm Hwf; lazy beta iota zeta delta [step i_op i_arg];
    unfold instr_wf, jump_ok, is_oint, is_ostr, is_ospan, is_ost, is_ofn, is_oint_nonneg in Hwf; cbn [i_op i_arg] in Hwf;
    match type of Hwf with
    | true = true => idtac
    | _ => destruct o; try discriminate Hwf; try apply Z.leb_le in Hwf; try rewrite Z2Nat.id in Hwf by exact Hpc0
    end;
    unfold with_pop2, with_pop, with_pop_n, with_int, need_dice, arg_int, arg_str, upd_dice, add_ops, dice_result.

  (* block.pop, fstr.pop, ld.fs: the top goes back to a recorded or computed one below the line, then one push *)
  Lemma Q_set_top_push : forall fr t v w (g : frame -> frame), mid fr -> t < stack_size ->
    (forall fr1, mid fr1 -> fr_blocks fr1 = fr_blocks fr -> fr_fblocks fr1 = fr_fblocks fr -> ready (g fr1)) ->
    Q (match set_top fr t with None => SUnsup "uninit slot" | Some fr1 => do_push v (g fr1) w end).
  Proof.
    intros fr t v w g Hm Ht Hg. destruct (set_top fr t) as [fr1|] eqn:Hs; [|exact Logic.I].
    destruct (set_top_mid _ _ _ Hm Ht Hs) as (M1 & _ & B1 & F1). apply Q_do_push, Hg; assumption.
  Qed.

  Lemma step_block_pop_no_panic : step_safe OpBlockPop.
  Proof.
    q_start. destruct (fr_blocks (m_fr m)) as [|t rest] eqn:Hb; [exact Logic.I|].
    pose proof Hm as ((_ & _ & _ & HB & _) & _). rewrite Hb in HB.
    apply (Q_set_top_push _ _ _ _ (fun f => fr_set_blocks f rest (fr_fblocks f)) Hm (Forall_inv HB)).
    intros fr1 M1 _ F1. pose proof (Forall_inv_tail HB). fr_solve.
  Qed.

  Lemma step_fstr_pop_no_panic : step_safe OpFstrPop.
  Proof.
    q_start. destruct (fr_fblocks (m_fr m)) as [|t rest] eqn:Hb; [exact Logic.I|]. cbv zeta.
    pose proof Hm as ((_ & _ & _ & _ & HF) & _). rewrite Hb in HF.
    assert (Hfin : forall v fr1, mid fr1 -> Q (match set_top fr1 t with
                                              | None => SUnsup "uninit slot"
                                              | Some fr2 => do_push v (fr_set_blocks fr2 (fr_blocks fr2) rest) (m_w m)
                                              end)).
    { intros v fr1 M. apply (Q_set_top_push _ _ _ _ (fun f => fr_set_blocks f (fr_blocks f) rest) M (Forall_inv HF)).
      intros fr2 M2 _ _. pose proof (Forall_inv_tail HF). fr_solve. }
    destruct (t =? fr_top (m_fr m)); [apply Hfin; assumption|].
    destruct (pop (m_fr m)) as [v fr1] eqn:Hp. destruct (pop_mid _ _ _ Hm Hp) as [M1 _]. apply Hfin; assumption.
  Qed.

  Lemma step_ldfs_no_panic : step_safe OpLdFs.
  Proof.
    q_start. destruct ((0 <? z) && (fr_top (m_fr m) - z <? 0)); [exact Logic.I|].
    match goal with |- Q (?f ?l0 ?a0) => cut (forall l acc, Q (f l acc)); [intros Hx; apply Hx|] end.
    induction l as [|v l IH]; intros acc; cbv beta iota.
    - assert (Ht : fr_top (m_fr m) - z < stack_size) by (destruct Hm as (_ & Ht & _); lia).
      replace (stack_size <=? fr_top (m_fr m) - z) with false by (symmetry; apply Z.leb_gt; exact Ht).
      apply (Q_set_top_push _ _ _ _ (fun f => f) Hm Ht). intros fr1 M1 _ _. exact (mid_ready _ M1).
    - destruct (to_string _ _ v); [apply IH|exact Logic.I].
  Qed.

  (* push.def_expr pushes at top < 1000 (mid); what follows only reads the frame, and a span outside the
     text makes it skip the rewrite of the detail text *)
  Lemma step_def_expr_no_panic : step_safe OpPushDefExpr.
  Proof.
    q_start. destruct (negb _); [exact Logic.I|].
    pose proof (Q_do_push (VInt 100) (m_fr m) (m_w m) (mid_ready _ Hm)) as HQ. unfold do_push in HQ.
    destruct (push (VInt 100) (m_fr m)) as [fr1|]; [|exact HQ].
    destruct (fr_src fr1); [|exact HQ]. destruct (fr_details fr1) as [|[b e] ds]; [exact HQ|].
    destruct (fr_dice fr1); [exact HQ|]. destruct (substring_b _ b e); exact HQ.
  Qed.

  (* For every opcode: q_start puts the opcode's branch of `step` in place of `step` and reads the operand's shape
     off instr_wf; q_go then follows that branch from the outside in: a pop leaves a mid frame (pop_mid, pop_n_mid),
     an operation under `lift` has its rok lemma, a push wants a ready frame (Q_do_push), a frame built by setters is
     checked field by field (fr_solve; for a jump, -1 <= pc0 + offset is what jump_ok gave), every other
     `if` / `match` is split.  Four opcodes need an argument of their own and have a lemma above: block.pop and
     fstr.pop (the recorded top is below the line because frame_ok says so), ld.fs (a loop), push.def_expr (pushes
     without do_push). *)
  Theorem C01_step_no_panic_partial : forall op, step_safe op.
  Proof.
    destruct op;
      lazymatch goal with
      | |- step_safe OpBlockPop => exact step_block_pop_no_panic
      | |- step_safe OpFstrPop => exact step_fstr_pop_no_panic
      | |- step_safe OpLdFs => exact step_ldfs_no_panic
      | |- step_safe OpPushDefExpr => exact step_def_expr_no_panic
      | |- _ => q_start; q_go
      end.
  Qed.

End StepSafety.

Lemma count_op_inv : forall E m m1 over, count_op E m = (m1, over) ->
  m_fr m1 = m_fr m /\ exists ops, m_w m1 = w_set_self_ops (m_w m) ops.
Proof. unfold count_op; intros E m m1 over. destruct (ops_add _ _ _). intros [= <- <-]. split; [reflexivity|eexists; reflexivity]. Qed.

Theorem C01_exec_no_panic_anystate : forall E, ftab_wf (e_ftab E) = true ->
  forall fuel m, machine_ok m -> res_ok (exec fuel E m).
Proof.
  intros E Hft. induction fuel as [|f IH]; intros m Hm; [exact Logic.I|].
  cbn [exec]. destruct Hm as (W1 & F & Hpc).
  destruct (zlen (fr_code (m_fr m)) <=? fr_pc (m_fr m)) eqn:Hlen; [destruct (fr_err (m_fr m)); exact Logic.I|].
  apply Z.leb_gt in Hlen.
  destruct (count_op E m) as [m1 over] eqn:Hc. destruct (count_op_inv _ _ _ _ Hc) as [Hfr _].
  destruct over; [exact Logic.I|]. destruct (fr_err (m_fr m)); [exact Logic.I|].
  destruct (fr_top (m_fr m) =? stack_size) eqn:Htop; [exact Logic.I|]. apply Z.eqb_neq in Htop.
  destruct (fr_pc (m_fr m) <? 0) eqn:Hneg; [apply Z.ltb_lt in Hneg; lia|].
  destruct (nth_error (fr_code (m_fr m)) (Z.to_nat (fr_pc (m_fr m)))) as [[op o]|] eqn:Hn.
  2:{ apply nth_error_None in Hn. unfold zlen in Hlen. lia. }
  (* the frame the instruction sees is below the overflow line: the loop head has just tested it *)
  assert (Hmid : mid (fr_code (m_fr m)) (fr_src (m_fr m)) (fr_pc (m_fr m)) (m_fr m1)).
  { rewrite Hfr. unfold mid. split; [exact F|]. split; [|reflexivity]. destruct F as (_ & _ & Ht & _). lia. }
  pose proof (C01_step_no_panic_partial (exec f E) f E _ _ _ Hpc Hft IH op o m1 _ Hmid
                (code_wf_nth _ _ _ W1 Hn)) as HQ.
  destruct (step (exec f E) f E {| i_op := op; i_arg := o |} m1) as [m2|m2|e m2|s| |s]; try exact Logic.I.
  - apply IH. destruct HQ as [F2 P2].
    unfold machine_ok; cbn [m_fr]. unfold frame_ok in *. fr_unfold.
    destruct F2 as (C2 & S2 & R2). rewrite C2, S2. repeat (split; [tauto|]). lia.
  - exact HQ.
Qed.

Theorem C01_run_no_panic_anystate : forall E c src,
  code_wf c = true -> ftab_wf (e_ftab E) = true ->
  forall fuel st, match run fuel E c src st with OPanic s => allowed s | _ => True end.
Proof.
  intros E c src W1 Hft fuel st. unfold run.
  match goal with |- context [exec fuel E ?m] =>
    pose proof (C01_exec_no_panic_anystate E Hft fuel m (new_frame_machine_ok _ _ _ W1)) as H;
    destruct (exec fuel E m) end; try exact Logic.I. exact H.
Qed.

Lemma wrap64_id : forall z, in_i64 z -> wrap64 z = z.
Proof. unfold in_i64, wrap64, two63, two64; intros z H. rewrite Z.mod_small; lia. Qed.

(* push.range: with int64 operands (all the Go VM can hold) the element loop stays inside the array *)
Lemma range_loop_some : forall step y len, (step = 1 \/ step = -1) -> in_i64 y ->
  forall n i idx acc, in_i64 i -> 0 <= (y - i) * step -> (y - i) * step <= Z.of_nat n -> idx + (y - i) * step < len ->
  range_loop n i step y idx len acc <> None.
Proof.
  intros step y len Hs Hy. induction n as [|n IH]; intros i idx acc Hi H1 H2 H3.
  - cbn [range_loop]. replace (len <=? idx) with false by (symmetry; apply Z.leb_gt; lia).
    replace (i =? y) with true by (symmetry; apply Z.eqb_eq; destruct Hs; subst step; lia). discriminate.
  - cbn [range_loop]. replace (len <=? idx) with false by (symmetry; apply Z.leb_gt; lia).
    destruct (i =? y) eqn:He; [discriminate|]. apply Z.eqb_neq in He.
    assert (Hi2 : in_i64 (i + step)) by (unfold in_i64 in *; destruct Hs; subst step; lia).
    rewrite (wrap64_id _ Hi2). apply IH; auto; destruct Hs; subst step; lia.
Qed.

Lemma push_range_no_panic_i64 : forall x y w s, in_i64 x -> in_i64 y -> push_range (VInt x) (VInt y) w <> RPanic s.
Proof.
  intros x y w s Hx Hy. unfold push_range.
  (* a difference d of two int64 that passes the length test has not wrapped *)
  assert (Hw : forall d, 0 <= d < two64 -> (wrap64 d <? 0) || (511 <? wrap64 d) = false -> wrap64 d = d /\ d <= 511).
  { intros d Hd H. apply orb_false_iff in H. destruct H as [A B]. apply Z.ltb_ge in A, B.
    unfold wrap64, two63, two64 in *. destruct (Z_lt_dec d 9223372036854775808).
    - rewrite Z.mod_small in * by lia. lia.
    - replace (d + 9223372036854775808) with (d - 9223372036854775808 + 1 * 18446744073709551616) in A by lia.
      rewrite Z.mod_add in A by lia. rewrite Z.mod_small in A by lia. lia. }
  (* upwards and downwards alike: d = |y - x| *)
  assert (Hgo : forall step d, (step = 1 \/ step = -1) -> d = (y - x) * step -> 0 <= d ->
            (if (wrap64 d <? 0) || (511 <? wrap64 d) then RFail ELimit w
             else if 512 <? wrap64 (wrap64 d + 1) then RFail ELimit w
             else match range_loop 513 x step y 0 (wrap64 (wrap64 d + 1)) [] with
                  | None => RPanic "index out of range (push.range)"
                  | Some l => new_arr l w
                  end) <> RPanic s).
  { intros step d Hs Hd H0. destruct ((wrap64 d <? 0) || (511 <? wrap64 d)) eqn:Hc; [discriminate|].
    destruct (Hw d) as [W1 W2]; [unfold in_i64, two63, two64 in *; destruct Hs; subst step; lia|exact Hc|]. rewrite W1.
    rewrite (wrap64_id (d + 1)) by (unfold in_i64, two63 in *; lia).
    destruct (512 <? d + 1); [discriminate|].
    destruct (range_loop 513 x step y 0 (d + 1) []) eqn:Hr.
    - unfold new_arr. destruct (alloc_arr _ _). discriminate.
    - exfalso. revert Hr. apply range_loop_some; auto; lia. }
  destruct (x <=? y) eqn:Hxy; [apply Z.leb_le in Hxy|apply Z.leb_gt in Hxy]; apply Hgo; auto; lia.
Qed.

Definition cfg0 : config :=
  {| cfg_ignore_div0 := false; cfg_min_mode := false; cfg_max_mode := false; cfg_op_limit := 0;
     cfg_def_expr_empty := true; cfg_st_callback := false |}.
Definition env0 (ft : ftab) : env := {| e_ftab := ft; e_cfg := cfg0 |}.
Definition st0 : vmstate := init_vmstate {| hi := 1; lo := 2 |}.

(* byte-code dumped from the real parser (harness k2) for "1+2*3; x=5; if x {x}" *)
Definition prog_if : code :=
  [I OpPushInt (OInt 1); I OpPushInt (OInt 2); I OpPushInt (OInt 3); I OpMul ONil; I OpAdd ONil;
   I OpPushInt (OInt 5); I OpStore (OStr "x"); I OpMarkDetail (OSpan 15 16); I OpLdD (OStr "x"); I OpBlockPush ONil;
   I OpJne (OInt 3); I OpMarkDetail (OSpan 18 19); I OpLdD (OStr "x"); I OpJmp (OInt 0); I OpBlockPop ONil; I OpHalt ONil].
Definition src_if : string := "1+2*3; x=5; if x {x}".

Example code_wf_accepts_real_program :
  code_wf prog_if = true /\ spans_wf (Some src_if) prog_if = true /\
  exists st', run 100 (env0 []) prog_if src_if st0 = Val VNull st' /\ vs_ops st' = 16.
Proof. split; [reflexivity|]. split; [reflexivity|]. eexists; split; vm_compute; reflexivity. Qed.

(* "x=1; while x<3 {x=x+1}; x": a backward jump (-11 from index 13) *)
Definition prog_while : code :=
  [I OpPushInt (OInt 1); I OpStore (OStr "x"); I OpBlockPush ONil; I OpMarkDetail (OSpan 11 12); I OpLdD (OStr "x");
   I OpPushInt (OInt 3); I OpLt ONil; I OpJne (OInt 6); I OpMarkDetail (OSpan 18 19); I OpLdD (OStr "x");
   I OpPushInt (OInt 1); I OpAdd ONil; I OpStore (OStr "x"); I OpJmp (OInt (-11)); I OpBlockPop ONil;
   I OpMarkDetail (OSpan 24 25); I OpLdD (OStr "x"); I OpHalt ONil].
Example code_wf_accepts_loop :
  code_wf prog_while = true /\ spans_wf (Some "x=1; while x<3 {x=x+1}; x"%string) prog_while = true /\
  exists st', run 100 (env0 []) prog_while "x=1; while x<3 {x=x+1}; x" st0 = Val (VInt 3) st' /\ vs_ops st' = 34.
Proof. split; [reflexivity|]. split; [reflexivity|]. eexists; split; vm_compute; reflexivity. Qed.

(* "          &a = 2d+1; a": a computed value whose body uses push.def_expr; the parser made the span
   relative to the body text *)
Definition ftab_comp : ftab :=
  [ {| f_computed := true; f_name := ""; f_params := []; f_expr := "2d+1";
       f_code := Some [I OpPushInt (OInt 2); I OpDiceInit ONil; I OpDiceSetTimes ONil; I OpMarkDetail (OSpan 0 2);
                       I OpPushDefExpr ONil; I OpDice ONil; I OpPushInt (OInt 1); I OpAdd ONil] |} ].
Definition prog_comp : code :=
  [I OpPushComputed (OFn 0); I OpStore (OStr "a"); I OpMarkDetail (OSpan 21 22); I OpLdD (OStr "a"); I OpHalt ONil].
Example ftab_wf_accepts_real_computed :
  ftab_wf ftab_comp = true /\ code_wf prog_comp = true /\
  spans_wf (Some "          &a = 2d+1; a"%string) prog_comp = true /\
  exists st', run 100 (env0 ftab_comp) prog_comp "          &a = 2d+1; a" st0 = Val (VInt 173) st' /\ vs_ops st' = 115.
Proof. split; [reflexivity|]. split; [reflexivity|]. split; [reflexivity|]. eexists; split; vm_compute; reflexivity. Qed.

Example code_wf_rejects_nil_operand : code_wf [I OpPushInt ONil; I OpHalt ONil] = false.
Proof. reflexivity. Qed.
Example code_wf_rejects_nil_jump : code_wf [I OpPushInt (OInt 1); I OpJeDup ONil; I OpHalt ONil] = false.
Proof. reflexivity. Qed.
Example code_wf_rejects_backward_jump : code_wf [I OpJmp (OInt (-5)); I OpHalt ONil] = false.
Proof. reflexivity. Qed.
Example code_wf_accepts_jump_to_start : code_wf [I OpNop ONil; I OpJmp (OInt (-2)); I OpHalt ONil] = true.
Proof. reflexivity. Qed.

(* the hypotheses matter: each of these ill-formed programs really reaches a panic site *)
Example non_wf_jump_panics :
  run 100 (env0 []) [I OpJmp (OInt (-5)); I OpHalt ONil] "" st0 = OPanic "code index negative".
Proof. vm_compute; reflexivity. Qed.
Example non_wf_operand_panics :
  run 100 (env0 []) [I OpPushInt (OInt 1); I OpJeDup ONil; I OpHalt ONil] "" st0 = OPanic "operand is not an IntType".
Proof. vm_compute; reflexivity. Qed.
(* ld.fs with a negative count RAISES the top: why instr_wf asks for a non-negative one *)
Example non_wf_ldfs_panics :
  code_wf [I OpLdFs (OInt (-1000)); I OpHalt ONil] = false /\
  run 100 (env0 []) [I OpLdFs (OInt (-1000)); I OpHalt ONil] "" st0 = OPanic "stack index 1000".
Proof. split; [reflexivity|vm_compute; reflexivity]. Qed.
(* a span outside the text (dice state open, default sides; such code is left over in a computed value by
   `&x = 0 ? 1, 2d ?`): push.def_expr, the one reader of a span, skips the rewrite of the detail text, in the code
   (/repo e540a42) as in the model, so spans_wf is a hypothesis of no theorem *)
Example non_wf_span_no_longer_panics :
  code_wf [I OpDiceInit ONil; I OpMarkDetail (OSpan 0 9); I OpPushDefExpr ONil; I OpHalt ONil] = true /\
  spans_wf (Some "d"%string) [I OpDiceInit ONil; I OpMarkDetail (OSpan 0 9); I OpPushDefExpr ONil; I OpHalt ONil] = false /\
  match run 100 (env0 []) [I OpDiceInit ONil; I OpMarkDetail (OSpan 0 9); I OpPushDefExpr ONil; I OpHalt ONil] "d" st0 with
  | Val (VInt 100) _ => True
  | _ => False
  end.
Proof. split; [reflexivity|]. split; [reflexivity|vm_compute; exact Logic.I]. Qed.

(* The unrestricted statement is false OF THE MODEL: two sites depend on a value, not on the code.
   (1) an integer outside int64 (the model's VInt carries a Z; a Go IntType cannot hold it) *)
Definition prog_range_big : code :=
  [I OpPushInt (OInt 0); I OpPushInt (OInt 18446744073709551616); I OpPushRange ONil; I OpHalt ONil].
Example C01_run_no_panic_refuted_big_int :
  code_wf prog_range_big = true /\ spans_wf (Some ""%string) prog_range_big = true /\
  run 100 (env0 []) prog_range_big "" st0 = OPanic range_msg.
Proof. split; [reflexivity|]. split; [reflexivity|vm_compute; reflexivity]. Qed.

(* (2) a variable holding the bound method Computed.compute WITHOUT its Self (no instruction creates one:
   attr.get on a computed value reads only the attribute map; it can only come from outside, e.g. a decoder) *)
Definition st_bare_compute : vmstate :=
  {| vs_heap := set_map 0 [("f"%string, VNative "Computed.compute" SNone)] (vs_heap st0);
     vs_pcg := vs_pcg st0; vs_attrs := vs_attrs st0; vs_ops := 0; vs_st := [] |}.
Definition prog_call_f : code := [I OpLd (OStr "f"); I OpInvoke (OInt 0); I OpHalt ONil].
Example C01_run_no_panic_refuted_bare_method :
  code_wf prog_call_f = true /\ spans_wf (Some "f()"%string) prog_call_f = true /\
  run 100 (env0 []) prog_call_f "f()" st_bare_compute = OPanic nilself_msg.
Proof. split; [reflexivity|]. split; [reflexivity|vm_compute; reflexivity]. Qed.

Print Assumptions C01_step_no_panic_partial.
Print Assumptions C01_exec_no_panic_anystate.
Print Assumptions C01_run_no_panic_anystate.
Print Assumptions push_range_no_panic_i64.

Definition ops_of (w : world) : Z := c_ops (w_self w).

(* `sub` is started on behalf of context k of w: on a fresh frame, the counter of that context + 100 (as an int64,
   and within the limit) in its own context and in the one it is started for *)
Definition started (E : env) (k : nat) (w : world) (sub : machine) : Prop :=
  exists t mapid, nth_error (w_chain w) k = Some t /\ limit_hit E (wrap64 (c_ops t + 100)) = false /\
    fr_dice (m_fr sub) = [] /\
    w_chain (m_w sub) = {| c_attrs := mapid; c_ops := wrap64 (c_ops t + 100) |}
                        :: {| c_attrs := c_attrs t; c_ops := wrap64 (c_ops t + 100) |} :: skipn (S k) (w_chain w).
(* the finished run m' hands its counter to context k; the contexts below k are those of w *)
Definition returned (k : nat) (w : world) (m' : machine) (w' : world) : Prop :=
  exists s' t' rest', w_chain (m_w m') = s' :: t' :: rest' /\
    w_chain w' = (firstn k (w_chain w) ++ {| c_attrs := c_attrs t'; c_ops := c_ops s' |} :: rest')%list.

Lemma ce_sub_started : forall E cid k w sub, ce_sub E cid k w = Some sub -> started E k w sub.
Proof.
  intros E cid k w sub. unfold ce_sub, started.
  destruct (nth_error (w_chain w) k) as [t|]; [|discriminate].
  destruct (cattrs_force cid (w_heap w)) as [mapid h1]. cbv zeta.
  destruct (limit_hit E _) eqn:Hl; [discriminate|].
  destruct (f_lookup (e_ftab E) cid) as [d|]; [|discriminate]. destruct (f_code d); [|discriminate].
  intros [= <-]. exists t, mapid. auto.
Qed.

Lemma fi_sub_started : forall E fid args w sub, fi_sub E fid args w = Some sub -> started E 0 w sub.
Proof.
  intros E fid args w sub. unfold fi_sub, started.
  destruct (f_lookup (e_ftab E) fid) as [d|]; [|discriminate].
  destruct (w_chain w) as [|self ups]; [discriminate|]. destruct (negb _); [discriminate|].
  destruct (alloc_map _ _) as [mapid h1]. cbv zeta.
  destruct (limit_hit E _) eqn:Hl; [discriminate|]. destruct (f_code d); [|discriminate].
  intros [= <-]. exists self, mapid. auto.
Qed.

Lemma computed_execute_ROk : forall call E cid k w v w', computed_execute call E cid k w = ROk v w' ->
  exists sub m', ce_sub E cid k w = Some sub /\ call sub = Fin m' /\ returned k w m' w'.
Proof.
  intros call E cid k w v w' H. pose proof (computed_execute_inv call E cid k w) as I0. rewrite H in I0.
  destruct I0 as (sub & m' & s' & t' & rest' & Hs & Hc & Hm & _ & ->).
  exists sub, m'. split; [exact Hs|]. split; [exact Hc|]. exists s', t', rest'. split; [exact Hm|reflexivity].
Qed.

Lemma func_invoke_ROk : forall call E fid args w v w', func_invoke call E fid args w = ROk v w' ->
  exists sub m', fi_sub E fid args w = Some sub /\ call sub = Fin m' /\ returned 0 w m' w'.
Proof.
  intros call E fid args w v w' H. pose proof (func_invoke_inv call E fid args w) as I0. rewrite H in I0.
  destruct I0 as (sub & m' & s' & t' & rest' & Hs & Hc & Hm & _ & ->).
  exists sub, m'. split; [exact Hs|]. split; [exact Hc|]. exists s', t', rest'. split; [exact Hm|reflexivity].
Qed.

Lemma ops_at_0 : forall w, ops_at 0 w = ops_of w.
Proof. intros w. unfold ops_at, ops_of, w_self. destruct (w_chain w); reflexivity. Qed.

Lemma returned_nonempty : forall k w m' w', returned k w m' w' -> w_chain w' <> [].
Proof. intros k w m' w' (s' & t' & rest' & _ & H). rewrite H. destruct (firstn k (w_chain w)); discriminate. Qed.

Lemma returned_ops : forall k w m' w', returned k w m' w' -> w_chain w <> [] ->
  ops_of w' = match k with O => ops_of (m_w m') | S _ => ops_of w end.
Proof.
  intros k w m' w' (s' & t' & rest' & Hm & H) Hne. unfold ops_of, w_self. rewrite H, Hm.
  destruct k; [reflexivity|]. destruct (w_chain w); [congruence|reflexivity].
Qed.

Lemma Forall_take : forall A (P : A -> Prop) k l, Forall P l -> Forall P (firstn k l).
Proof. intros A P k l H. rewrite <- (firstn_skipn k l) in H. apply Forall_app in H. tauto. Qed.
Lemma Forall_drop : forall A (P : A -> Prop) k l, Forall P l -> Forall P (skipn k l).
Proof. intros A P k l H. rewrite <- (firstn_skipn k l) in H. apply Forall_app in H. tauto. Qed.

Lemma Forall_nth_error : forall A (P : A -> Prop) l k x, Forall P l -> nth_error l k = Some x -> P x.
Proof. intros A P l k x H Hn. rewrite Forall_forall in H. apply H. eapply nth_error_In; eauto. Qed.

Lemma ops_at_Forall : forall (P : Z -> Prop) k w, P 0 -> Forall (fun c => P (c_ops c)) (w_chain w) -> P (ops_at k w).
Proof.
  intros P k w H0 H. unfold ops_at. destruct (nth_error (w_chain w) k) eqn:Hn; [|exact H0].
  exact (Forall_nth_error _ _ _ _ _ H Hn).
Qed.

Lemma started_head : forall E k w sub, started E k w sub ->
  w_chain (m_w sub) <> [] /\ fr_dice (m_fr sub) = [] /\ ops_of (m_w sub) = wrap64 (ops_at k w + 100) /\
  limit_hit E (wrap64 (ops_at k w + 100)) = false.
Proof.
  intros E k w sub (t & mapid & Hn & Hl & Hd & Hc). unfold ops_at, ops_of, w_self. rewrite Hn, Hc.
  split; [discriminate|]. split; [exact Hd|]. split; [reflexivity|exact Hl].
Qed.

Lemma started_Forall : forall E k w sub (P : Z -> Prop), started E k w sub ->
  P (wrap64 (ops_at k w + 100)) -> Forall (fun c => P (c_ops c)) (w_chain w) -> Forall (fun c => P (c_ops c)) (w_chain (m_w sub)).
Proof.
  intros E k w sub P (t & mapid & Hn & Hl & Hd & Hc) Hp H. unfold ops_at in Hp. rewrite Hn in Hp. rewrite Hc.
  constructor; [exact Hp|]. constructor; [exact Hp|]. apply Forall_drop. exact H.
Qed.
Lemma returned_Forall : forall k w m' w' (P : Z -> Prop), returned k w m' w' ->
  Forall (fun c => P (c_ops c)) (w_chain w) -> Forall (fun c => P (c_ops c)) (w_chain (m_w m')) -> Forall (fun c => P (c_ops c)) (w_chain w').
Proof.
  intros k w m' w' P (s' & t' & rest' & Hm & H) Hw Hm'. rewrite H. rewrite Hm in Hm'.
  apply Forall_app. split; [apply Forall_take; exact Hw|].
  constructor; [exact (Forall_inv Hm')|exact (Forall_inv_tail (Forall_inv_tail Hm'))].
Qed.

Lemma ops_add_value : forall c cur count, 0 <= cur <= MaxInt64 -> 0 <= count ->
  fst (ops_add c cur count) = Z.min (cur + count) MaxInt64.
Proof.
  unfold ops_add, MaxInt64, wrap64, two63, two64; intros c cur count H1 H2; cbn [fst].
  rewrite (Z.mod_small (9223372036854775807 - cur + 9223372036854775808)) by lia.
  replace (9223372036854775807 - cur + 9223372036854775808 - 9223372036854775808) with (9223372036854775807 - cur) by lia.
  destruct (9223372036854775807 - cur <? count) eqn:E.
  - apply Z.ltb_lt in E. lia.
  - apply Z.ltb_ge in E. rewrite Z.mod_small by lia. lia.
Qed.

Theorem C07_ops_add_spec : forall c cur count new over,
  0 <= cur <= MaxInt64 -> 0 <= count -> ops_add c cur count = (new, over) ->
  cur <= new /\ new <= MaxInt64 /\ new = Z.min (cur + count) MaxInt64 /\
  (over = true <-> (0 < cfg_op_limit c /\ cfg_op_limit c < new)).
Proof.
  intros c cur count new over H1 H2 H.
  pose proof (ops_add_value c cur count H1 H2) as Hv. pose proof (ops_add_over c cur count) as Ho.
  rewrite H in Hv, Ho. cbn [fst snd] in Hv, Ho. repeat split; try lia; apply Ho; assumption.
Qed.

Lemma charge_step : forall c L ops pool ops' over, cfg_op_limit c = L -> 0 < L < MaxInt64 -> 0 <= ops <= MaxInt64 -> 0 <= pool ->
  ops_add c ops pool = (ops', over) ->
  (over = true -> L < ops') /\ (over = false -> ops' = ops + pool /\ ops' <= L).
Proof.
  intros c L ops pool ops' over HL HLr Hops Hpool Ha.
  destruct (C07_ops_add_spec _ _ _ _ _ Hops Hpool Ha) as (H1 & H2 & H3 & H4). rewrite HL in H4. split.
  - intros ->. apply H4; reflexivity.
  - intros ->. assert (~ (0 < L /\ L < ops')) by (intros X; apply H4 in X; discriminate). lia.
Qed.

Definition next_pc (m2 : machine) : machine :=
  {| m_fr := fr_set_pc (m_fr m2) (fr_pc (m_fr m2) + 1); m_w := m_w m2 |}.
Definition counted (E : env) (m : machine) : machine :=
  {| m_fr := m_fr m; m_w := w_set_self_ops (m_w m) (fst (ops_add (e_cfg E) (ops_of (m_w m)) 1)) |}.

Lemma count_op_spec : forall E m, count_op E m = (counted E m, snd (ops_add (e_cfg E) (ops_of (m_w m)) 1)).
Proof. intros; unfold count_op, counted, ops_of. destruct (ops_add _ _ _); reflexivity. Qed.

Lemma ops_of_set_self : forall w x, w_chain w <> [] -> ops_of (w_set_self_ops w x) = x.
Proof. unfold ops_of, w_self, w_set_self_ops; intros w x H. destruct (w_chain w); [congruence|reflexivity]. Qed.

Lemma set_self_ops_Forall : forall (P : Z -> Prop) x w, P x ->
  Forall (fun c => P (c_ops c)) (w_chain w) -> Forall (fun c => P (c_ops c)) (w_chain (w_set_self_ops w x)).
Proof.
  intros P x w Hx H. unfold w_set_self_ops. destruct (w_chain w) as [|a r] eqn:Hc; [rewrite Hc; exact H|].
  constructor; [exact Hx|exact (Forall_inv_tail H)].
Qed.

Lemma counted_ops : forall E m, w_chain (m_w m) <> [] ->
  ops_of (m_w (counted E m)) = fst (ops_add (e_cfg E) (ops_of (m_w m)) 1).
Proof. intros; unfold counted; cbn [m_w]. apply ops_of_set_self; assumption. Qed.

Lemma counted_rest : forall E m,
  m_fr (counted E m) = m_fr m /\ w_heap (m_w (counted E m)) = w_heap (m_w m) /\
  w_pcg (m_w (counted E m)) = w_pcg (m_w m) /\ w_st (m_w (counted E m)) = w_st (m_w m).
Proof. intros; unfold counted, w_set_self_ops; cbn [m_fr m_w]. destruct (w_chain (m_w m)); cbn; auto. Qed.

(* where one turn of the loop ends without dispatching (inl), or the instruction it hands to `step` on the counted machine *)
Definition exec_head (E : env) (m : machine) : result + instr :=
  let fr := m_fr m in
  if zlen (fr_code fr) <=? fr_pc fr then inl (match fr_err fr with Some e => Fail e m | None => Fin m end)
  else if snd (ops_add (e_cfg E) (ops_of (m_w m)) 1) then inl (Fail EBudget (counted E m))
  else match fr_err fr with
       | Some e => inl (Fail e (counted E m))
       | None =>
         if fr_top fr =? stack_size then inl (Fail EStack (counted E m))
         else if fr_pc fr <? 0 then inl (Panic "code index negative")
         else match nth_error (fr_code fr) (Z.to_nat (fr_pc fr)) with
              | None => inl (Panic "code index out of range")
              | Some ins => inr ins
              end
       end.

Lemma exec_head_Fin : forall E m m', exec_head E m = inl (Fin m') -> m' = m.
Proof.
  intros E m m'. unfold exec_head.
  repeat match goal with |- context [if ?b then _ else _] => destruct b end;
    repeat match goal with |- context [match ?x with Some _ => _ | None => _ end] => destruct x end;
    congruence.
Qed.

Lemma exec_head_inr : forall E m ins, exec_head E m = inr ins -> snd (ops_add (e_cfg E) (ops_of (m_w m)) 1) = false.
Proof.
  intros E m ins. unfold exec_head. destruct (_ <=? _); [discriminate|].
  destruct (snd (ops_add _ _ _)); [discriminate|reflexivity].
Qed.

(* how a run with a cost goes on after the dispatched instruction, whose cost is d *)
Definition exec_after (op : nat -> nat -> nat) (d : nat) (rest : machine -> result * nat) (s : sresult) : result * nat :=
  match s with
  | SNext m2 => (fst (rest (next_pc m2)), op d (snd (rest (next_pc m2))))
  | SStop m2 => (Fin m2, d)
  | SFail e m2 => (Fail e m2, d)
  | SPanic s => (Panic s, d)
  | SFuel => (OutOfFuel, d)
  | SUnsup s => (Unsupported s, d)
  end.

(* VM.exec with a cost: `cost` of the dispatched instruction, given the cost of the sub-VMs it starts, combined by
   `op` along the run.  CodeWf.exec_count, VMDepth.exec_depth and DiceCharge.exec_dice are written out as Fixpoints of
   their own and are convertible to instances of exec_gen: their `_fst` / `_S` lemmas are `exact (exec_gen_.. op cost)`. *)
Section ExecGen.
  Variable op : nat -> nat -> nat.
  Variable cost : (machine -> result) -> (machine -> nat) -> nat -> env -> instr -> machine -> nat.

  Fixpoint exec_gen (fuel : nat) (E : env) (m : machine) : result * nat :=
    match fuel with
    | O => (OutOfFuel, O)
    | S f =>
      let fr := m_fr m in
      if zlen (fr_code fr) <=? fr_pc fr then
        (match fr_err fr with Some e => Fail e m | None => Fin m end, O)
      else
        let '(m1, over) := count_op E m in
        if over then (Fail EBudget m1, O)
        else match fr_err fr with Some e => (Fail e m1, O) | None =>
        if fr_top fr =? stack_size then (Fail EStack m1, O)
        else if fr_pc fr <? 0 then (Panic "code index negative", O)
        else match nth_error (fr_code fr) (Z.to_nat (fr_pc fr)) with
             | None => (Panic "code index out of range", O)
             | Some ins =>
               let next (m2 : machine) := {| m_fr := fr_set_pc (m_fr m2) (fr_pc (m_fr m2) + 1); m_w := m_w m2 |} in
               let d := cost (exec f E) (fun sub => snd (exec_gen f E sub)) f E ins m1 in
               match step (exec f E) f E ins m1 with
               | SNext m2 => let '(r, n) := exec_gen f E (next m2) in (r, op d n)
               | SStop m2 => (Fin m2, d)
               | SFail e m2 => (Fail e m2, d)
               | SPanic s => (Panic s, d)
               | SFuel => (OutOfFuel, d)
               | SUnsup s => (Unsupported s, d)
               end
             end
        end
    end.

  Lemma exec_gen_S : forall f E m, exec_gen (S f) E m =
    match exec_head E m with
    | inl r => (r, O)
    | inr ins => exec_after op (cost (exec f E) (fun sub => snd (exec_gen f E sub)) f E ins (counted E m)) (exec_gen f E)
                            (step (exec f E) f E ins (counted E m))
    end.
  Proof.
    intros f E m. cbn [exec_gen]. unfold exec_head, exec_after. rewrite count_op_spec.
    destruct (_ <=? _); [reflexivity|]. destruct (snd (ops_add _ _ _)); [reflexivity|].
    destruct (fr_err (m_fr m)); [reflexivity|]. destruct (_ =? _); [reflexivity|]. destruct (_ <? _); [reflexivity|].
    destruct (nth_error _ _); [|reflexivity]. cbv zeta.
    destruct (step _ _ _ _ _); try reflexivity. fold (next_pc m0). destruct (exec_gen f E (next_pc m0)); reflexivity.
  Qed.

  Lemma exec_gen_fst : forall fuel E m, fst (exec_gen fuel E m) = exec fuel E m.
  Proof.
    induction fuel as [|f IH]; intros E m; [reflexivity|]. rewrite exec_gen_S. cbn [exec]. unfold exec_head, exec_after. rewrite count_op_spec.
    destruct (_ <=? _); [reflexivity|]. destruct (snd (ops_add _ _ _)); [reflexivity|].
    destruct (fr_err (m_fr m)); [reflexivity|]. destruct (_ =? _); [reflexivity|]. destruct (_ <? _); [reflexivity|].
    destruct (nth_error _ _); [|reflexivity]. cbv zeta.
    destruct (step _ _ _ _ _); try reflexivity. apply IH.
  Qed.
End ExecGen.

Lemma exec_count_fst : forall fuel E m, fst (exec_count fuel E m) = exec fuel E m.
Proof. exact (exec_gen_fst Nat.add (fun _ _ _ _ _ _ => 1%nat)). Qed.

Lemma exec_count_S : forall f E m, exec_count (S f) E m =
  match exec_head E m with
  | inl r => (r, O)
  | inr ins => exec_after Nat.add 1%nat (exec_count f E) (step (exec f E) f E ins (counted E m))
  end.
Proof. exact (exec_gen_S Nat.add (fun _ _ _ _ _ _ => 1%nat)). Qed.

(* every dispatched instruction is handed to `step` on the machine whose counter is ops_add .. 1 of the
   previous one; when that exceeds the limit the instruction is not executed *)
Theorem C07_dispatch_counts : forall f E m,
  fr_pc (m_fr m) < zlen (fr_code (m_fr m)) ->
  exec (S f) E m =
  if snd (ops_add (e_cfg E) (ops_of (m_w m)) 1) then Fail EBudget (counted E m)
  else match fr_err (m_fr m) with
       | Some e => Fail e (counted E m)
       | None =>
         if fr_top (m_fr m) =? stack_size then Fail EStack (counted E m)
         else if fr_pc (m_fr m) <? 0 then Panic "code index negative"
         else match nth_error (fr_code (m_fr m)) (Z.to_nat (fr_pc (m_fr m))) with
              | None => Panic "code index out of range"
              | Some ins =>
                match step (exec f E) f E ins (counted E m) with
                | SNext m2 => exec f E (next_pc m2)
                | SStop m2 => Fin m2
                | SFail e m2 => Fail e m2
                | SPanic s => Panic s
                | SFuel => OutOfFuel
                | SUnsup s => Unsupported s
                end
              end
       end.
Proof.
  intros f E m Hlen. cbn [exec].
  replace (zlen (fr_code (m_fr m)) <=? fr_pc (m_fr m)) with false by (symmetry; apply Z.leb_gt; exact Hlen).
  rewrite count_op_spec. reflexivity.
Qed.

Theorem C07_budget_error_once_exceeded : forall f E m,
  0 < cfg_op_limit (e_cfg E) < MaxInt64 -> fr_pc (m_fr m) < zlen (fr_code (m_fr m)) ->
  0 <= ops_of (m_w m) <= MaxInt64 -> cfg_op_limit (e_cfg E) <= ops_of (m_w m) ->
  exec (S f) E m = Fail EBudget (counted E m).
Proof.
  intros f E m HL Hlen Hr Hex. rewrite C07_dispatch_counts by exact Hlen.
  destruct (ops_add (e_cfg E) (ops_of (m_w m)) 1) as [new over] eqn:Ha.
  destruct (charge_step _ _ _ 1 _ _ eq_refl HL Hr ltac:(lia) Ha) as [_ C]. cbn [snd].
  destruct over; [reflexivity|]. specialize (C eq_refl). lia.
Qed.

Definition charged (E : env) (w : world) (count : Z) : world :=
  w_set_self_ops w (fst (ops_add (e_cfg E) (ops_of w) count)).
Definition over_by (E : env) (w : world) (count : Z) : bool := snd (ops_add (e_cfg E) (ops_of w) count).

Lemma add_ops_spec : forall E w count, add_ops E w count = (charged E w count, over_by E w count).
Proof. intros; unfold add_ops, charged, over_by, ops_of. destruct (ops_add _ _ _); reflexivity. Qed.

Lemma charged_pcg : forall E w n, w_pcg (charged E w n) = w_pcg w.
Proof. intros; unfold charged, w_set_self_ops. destruct (w_chain w); reflexivity. Qed.

Lemma charge_in : forall E L w n, cfg_op_limit (e_cfg E) = L -> 0 < L < MaxInt64 -> 0 <= ops_of w <= MaxInt64 -> 0 <= n ->
  over_by E w n = false -> fst (ops_add (e_cfg E) (ops_of w) n) = ops_of w + n /\ ops_of w + n <= L.
Proof.
  intros E L w n HL HLr Hops Hn Hov. unfold over_by in Hov.
  destruct (ops_add (e_cfg E) (ops_of w) n) as [ops' over] eqn:Ha. cbn [fst snd] in *. subst over.
  destruct (charge_step _ _ _ _ _ _ HL HLr Hops Hn Ha) as [_ C]. destruct (C eq_refl) as [-> C2]. auto.
Qed.

(* `dice`: the generator is untouched whenever the instruction fails; a budget failure leaves the
   charged counter; a roll happens only when the charge of d_times dice stayed within the limit, and
   it happens on the charged world *)
Theorem C07_dice_batch_charged_before_rolling : forall call rf E o m d rest,
  fr_dice (m_fr m) = d :: rest ->
  match step call rf E (I OpDice o) m with
  | SFail e m' => w_pcg (m_w m') = w_pcg (m_w m) /\
                  (e = EBudget -> m_w m' = charged E (m_w m) (d_times d) /\ over_by E (m_w m) (d_times d) = true)
  | SNext m' => over_by E (m_w m) (d_times d) = false /\ exists s, m_w m' = w_set_pcg (charged E (m_w m) (d_times d)) s
  | SStop _ => False
  | _ => over_by E (m_w m) (d_times d) = false
  end.
Proof.
  intros call rf E o m d rest Hd. unfold step; cbn [i_op i_arg]. rewrite Hd. unfold with_pop.
  destruct (pop (m_fr m)) as [v fr1]. destruct v; try (cbn [m_w mk]; split; [reflexivity|discriminate]).
  repeat match goal with |- context [if ?b then SFail EDice _ else _] =>
           destruct b; [cbn [m_w mk]; split; [reflexivity|discriminate]|] end.
  rewrite add_ops_spec. destruct (over_by E (m_w m) (d_times d)) eqn:Ho.
  - cbn [m_w mk]. split; [apply charged_pcg|]. intros _; auto.
  - destruct (dice_cap <? d_times d); [reflexivity|].
    destruct (roll_common _ _ _ _ _ _ _ _ _ _ _) as [[[num x] s]|]; [|reflexivity].
    unfold dice_result, do_push. destruct (push _ _); [|reflexivity]. cbn [m_w mk]. split; [reflexivity|].
    exists s. reflexivity.
Qed.

(* when the charge exceeds the limit the instruction fails and no die was rolled *)
Corollary C07_dice_over_budget_no_roll : forall call rf E o m d rest,
  fr_dice (m_fr m) = d :: rest -> over_by E (m_w m) (d_times d) = true ->
  exists e m', step call rf E (I OpDice o) m = SFail e m' /\ w_pcg (m_w m') = w_pcg (m_w m).
Proof.
  intros call rf E o m d rest Hd Ho. pose proof (C07_dice_batch_charged_before_rolling call rf E o m d rest Hd) as H.
  destruct (step call rf E (I OpDice o) m) as [m'|m'|e m'|s| |s]; rewrite ?Ho in H;
    try discriminate; try contradiction; try (destruct H; discriminate).
  exists e, m'. split; [reflexivity|apply H].
Qed.

(* with well-formed operands the failure IS the budget error *)
Lemma C07_dice_over_budget_is_EBudget : forall call rf E o m d rest sides l,
  fr_dice (m_fr m) = d :: rest -> fr_live (m_fr m) = VInt sides :: l -> 0 < sides ->
  (d_keep d = 0 \/ (0 < d_low d /\ 0 < d_high d)) ->
  over_by E (m_w m) (d_times d) = true ->
  exists fr1, step call rf E (I OpDice o) m = SFail EBudget (mk fr1 (charged E (m_w m) (d_times d))).
Proof.
  intros call rf E o m d rest sides l Hd Hl Hs Hk Ho. unfold step; cbn [i_op i_arg]. rewrite Hd. unfold with_pop, pop.
  rewrite Hl. cbv beta iota zeta.
  replace (sides <=? 0) with false by (symmetry; apply Z.leb_gt; lia).
  replace (((d_keep d =? 1) || (d_keep d =? 3)) && (d_low d <=? 0)) with false.
  2:{ symmetry. destruct Hk as [Hk|[Hk _]]; [rewrite Hk; reflexivity|]. apply andb_false_iff; right. apply Z.leb_gt; lia. }
  replace (((d_keep d =? 2) || (d_keep d =? 4)) && (d_high d <=? 0)) with false.
  2:{ symmetry. destruct Hk as [Hk|[_ Hk]]; [rewrite Hk; reflexivity|]. apply andb_false_iff; right. apply Z.leb_gt; lia. }
  rewrite add_ops_spec, Ho. eexists; reflexivity.
Qed.

(* coc.bonus / coc.penalty: a negative count is an error; otherwise the count is charged first *)
Theorem C07_coc_batch_charged_before_rolling : forall call rf E op o m n l,
  op = OpCocBonus \/ op = OpCocPenalty -> fr_live (m_fr m) = VInt n :: l ->
  let fr1 := snd (pop (m_fr m)) in
  if n <? 0 then step call rf E (I op o) m = SFail EDice (mk fr1 (m_w m))
  else if over_by E (m_w m) n then step call rf E (I op o) m = SFail EBudget (mk fr1 (charged E (m_w m) n))
  else match step call rf E (I op o) m with
       | SNext m' => exists s, m_w m' = w_set_pcg (charged E (m_w m) n) s
       | SFail _ _ | SStop _ => False
       | _ => True
       end.
Proof.
  intros call rf E op o m n l Hop Hl. unfold step.
  destruct Hop as [-> | ->]; cbn [i_op i_arg]; unfold with_pop, with_int, pop; rewrite Hl; cbv beta iota zeta; cbn [snd];
    (destruct (n <? 0); [reflexivity|]); rewrite add_ops_spec; (destruct (over_by E (m_w m) n); [reflexivity|]);
    (destruct (dice_cap <? n); [exact Logic.I|]);
    (destruct (roll_coc _ _ _ _ _ _) as [[[r x] s]|]; [|exact Logic.I]);
    unfold dice_result, do_push; (destruct (push _ _); [|exact Logic.I]); cbn [m_w mk];
    exists s; reflexivity.
Qed.

(* WoD / Double Cross: every round's pool is charged before that round is rolled.
   What a run of rounds may end with, given k dice in started rounds *)
Definition rounds_charged (L ops : Z) (r : rounds_res) (k : Z) : Prop :=
  0 <= k /\ k <= Z.max 0 (L - ops) /\
  match r with
  | RDone _ ops' _ => ops' = ops + k /\ ops' <= L        (* every die rolled was paid for, within the limit *)
  | ROver ops' _ => L < ops'                             (* the round that broke the limit was not rolled *)
  | RNoFuel => True
  end.

Lemma rounds_charged_more : forall L ops pool r k, 0 <= pool -> ops + pool <= L ->
  rounds_charged L (ops + pool) r k -> rounds_charged L ops r (Z.max 0 pool + k).
Proof. unfold rounds_charged. intros L ops pool r k H1 H2 (K1 & K2 & K3). destruct r; lia. Qed.

Theorem C07_wod_rounds_charged : forall c L addLine points threshold isGE mode, cfg_op_limit c = L -> 0 < L < MaxInt64 ->
  forall n pool succ ops s, 0 <= ops <= MaxInt64 -> 0 <= pool ->
  let rk := wod_budget_cnt n c addLine points threshold isGE mode pool succ ops s in
  fst rk = wod_budget n c addLine points threshold isGE mode pool succ ops s /\ rounds_charged L ops (fst rk) (snd rk).
Proof.
  intros c L addLine points threshold isGE mode HL HLr. cbv zeta.
  induction n; intros pool succ ops s Hops Hpool; cbn [wod_budget_cnt wod_budget].
  - split; [reflexivity|unfold rounds_charged; cbn [fst snd]; lia].
  - destruct (ops_add c ops pool) as [ops' over] eqn:Ha.
    destruct (charge_step _ _ _ _ _ _ HL HLr Hops Hpool Ha) as [C1 C2]. destruct over.
    + specialize (C1 eq_refl). split; [reflexivity|unfold rounds_charged; cbn [fst snd]; lia].
    + destruct (C2 eq_refl) as [-> E2].
      destruct (wod_round _ _ _ _ _ _ _ _ _ _ _) as [[[[sc add] x] s1]|]; [|split; [reflexivity|unfold rounds_charged; cbn [fst snd]; lia]].
      destruct (0 <? add) eqn:Hadd; [|split; [reflexivity|unfold rounds_charged; cbn [fst snd]; lia]]. apply Z.ltb_lt in Hadd.
      destruct (IHn add (succ + sc) (ops + pool) s1 ltac:(lia) ltac:(lia)) as [I1 I2].
      destruct (wod_budget_cnt n c addLine points threshold isGE mode add (succ + sc) (ops + pool) s1) as [r k].
      split; [exact I1|exact (rounds_charged_more _ _ _ _ _ Hpool E2 I2)].
Qed.

Theorem C07_dc_rounds_charged : forall c L addLine points mode, cfg_op_limit c = L -> 0 < L < MaxInt64 ->
  forall n pool result ops s, 0 <= ops <= MaxInt64 -> 0 <= pool ->
  let rk := dc_budget_cnt n c addLine points mode pool result ops s in
  fst rk = dc_budget n c addLine points mode pool result ops s /\ rounds_charged L ops (fst rk) (snd rk).
Proof.
  intros c L addLine points mode HL HLr. cbv zeta.
  induction n; intros pool result ops s Hops Hpool; cbn [dc_budget_cnt dc_budget].
  - split; [reflexivity|unfold rounds_charged; cbn [fst snd]; lia].
  - destruct (ops_add c ops pool) as [ops' over] eqn:Ha.
    destruct (charge_step _ _ _ _ _ _ HL HLr Hops Hpool Ha) as [C1 C2]. destruct over.
    + specialize (C1 eq_refl). split; [reflexivity|unfold rounds_charged; cbn [fst snd]; lia].
    + destruct (C2 eq_refl) as [-> E2].
      destruct (dc_round _ _ _ _ _ _ _ _ _) as [[[[mx add] x] s1]|]; [|split; [reflexivity|unfold rounds_charged; cbn [fst snd]; lia]].
      destruct (0 <? add) eqn:Hadd; [|split; [reflexivity|unfold rounds_charged; cbn [fst snd]; lia]]. apply Z.ltb_lt in Hadd.
      destruct (IHn add (wrap64 (result + mx)) (ops + pool) s1 ltac:(lia) ltac:(lia)) as [I1 I2].
      destruct (dc_budget_cnt n c addLine points mode add (wrap64 (result + mx)) (ops + pool) s1) as [r k].
      split; [exact I1|exact (rounds_charged_more _ _ _ _ _ Hpool E2 I2)].
Qed.

Theorem C07_wod_dc_rounds_charged : forall c L, cfg_op_limit c = L -> 0 < L < MaxInt64 ->
  forall n ops pool s, 0 <= ops <= MaxInt64 -> 0 <= pool ->
  (forall addLine points threshold isGE mode succ,
     let rk := wod_budget_cnt n c addLine points threshold isGE mode pool succ ops s in
     fst rk = wod_budget n c addLine points threshold isGE mode pool succ ops s /\ rounds_charged L ops (fst rk) (snd rk)) /\
  (forall addLine points mode result,
     let rk := dc_budget_cnt n c addLine points mode pool result ops s in
     fst rk = dc_budget n c addLine points mode pool result ops s /\ rounds_charged L ops (fst rk) (snd rk)).
Proof.
  intros c L HL HLr n ops pool s Hops Hpool. split; intros.
  - apply (C07_wod_rounds_charged c L); assumption.
  - apply (C07_dc_rounds_charged c L); assumption.
Qed.

(* what dice.wod / dice.dc make of the rounds *)
Definition rounds_step (fr : frame) (w : world) (r : rounds_res) : sresult :=
  match r with
  | RNoFuel => SFuel
  | ROver ops s => SFail EBudget (mk fr (w_set_pcg (w_set_self_ops w ops) s))
  | RDone num ops s => dice_result num fr (w_set_pcg (w_set_self_ops w ops) s)
  end.

Lemma wod_check_pool : forall a pool pts thr, negb (wod_check a pool pts thr) = false -> 0 <= pool.
Proof.
  unfold wod_check; intros a pool pts thr H. apply negb_false_iff in H.
  rewrite !andb_true_iff, !negb_true_iff, orb_false_iff, Z.ltb_ge in H. lia.
Qed.
Lemma dc_check_pool : forall a pool pts, negb (dc_check a pool pts) = false -> 0 <= pool.
Proof.
  unfold dc_check; intros a pool pts H. apply negb_false_iff in H.
  rewrite !andb_true_iff, !negb_true_iff, orb_false_iff, Z.ltb_ge in H. lia.
Qed.

(* the instruction: with a well-formed operand the outcome is exactly that of the budgeted rounds,
   started on the running context's counter; a budget stop is `Fail EBudget` with the charged counter *)
Theorem C07_wod_dc_rounds_charged_step : forall call rf E o m addLine l,
  fr_live (m_fr m) = VInt addLine :: l ->
  let fr1 := snd (pop (m_fr m)) in
  let w := m_w m in
  let cfg := e_cfg E in
  (let x := fr_wod fr1 in
   wod_check addLine (w_pool x) (w_points x) (w_threshold x) = true ->
   step call rf E (I OpDiceWod o) m =
   match wod_budget rf cfg addLine (w_points x) (w_threshold x) (w_isge x) (roll_mode cfg) (w_pool x) 0 (ops_of w) (w_pcg w) with
   | RNoFuel => SFuel
   | ROver ops s => SFail EBudget (mk fr1 (w_set_pcg (w_set_self_ops w ops) s))
   | RDone num ops s => dice_result num fr1 (w_set_pcg (w_set_self_ops w ops) s)
   end /\ 0 <= w_pool x) /\
  (let x := fr_dc fr1 in
   dc_check addLine (c_pool x) (c_points x) = true ->
   step call rf E (I OpDiceDC o) m =
   match dc_budget rf cfg addLine (c_points x) (roll_mode cfg) (c_pool x) 0 (ops_of w) (w_pcg w) with
   | RNoFuel => SFuel
   | ROver ops s => SFail EBudget (mk fr1 (w_set_pcg (w_set_self_ops w ops) s))
   | RDone num ops s => dice_result num fr1 (w_set_pcg (w_set_self_ops w ops) s)
   end /\ 0 <= c_pool x).
Proof.
  intros call rf E o m addLine l Hl. cbv zeta.
  assert (Hp : pop (m_fr m) = (VInt addLine, snd (pop (m_fr m)))) by (unfold pop; rewrite Hl; reflexivity).
  split; intros Hc; (split; [unfold step, with_pop, with_int; cbn [i_op i_arg]; rewrite Hp, Hc; reflexivity|]).
  - apply (wod_check_pool addLine _ (w_points (fr_wod (snd (pop (m_fr m))))) (w_threshold (fr_wod (snd (pop (m_fr m)))))).
    rewrite Hc; reflexivity.
  - apply (dc_check_pool addLine _ (c_points (fr_dc (snd (pop (m_fr m)))))). rewrite Hc; reflexivity.
Qed.

(* no dice state asks for a negative number of dice (`times` is only ever set to a positive operand): what makes the
   charge of `dice` non-negative *)
Definition dice_ok (fr : frame) : Prop := Forall (fun d => 0 <= d_times d) (fr_dice fr).

Lemma err_invalid_dice : forall fr, fr_dice (err_invalid fr) = fr_dice fr.
Proof. intros; unfold err_invalid. destruct (fr_err fr); reflexivity. Qed.
Lemma pop_dice : forall fr v fr1, pop fr = (v, fr1) -> fr_dice fr1 = fr_dice fr.
Proof.
  unfold pop; intros fr v fr1. destruct (fr_live fr); intros [= <- <-]; cbn [fr_set_stack fr_dice]; [apply err_invalid_dice|reflexivity].
Qed.
Lemma pop_n_dice : forall n fr l fr1, pop_n n fr = (l, fr1) -> fr_dice fr1 = fr_dice fr.
Proof.
  intros n fr l fr1 H. refine (proj2 (pop_n_keeps (fun f => fr_dice f = fr_dice fr) (fun _ => True) _ _ n fr l fr1 eq_refl H)).
  - intros fr0 v fr2 H0 Hp. split; [exact Logic.I|]. rewrite (pop_dice _ _ _ Hp). exact H0.
  - intros fr0 l0 H0 _. exact H0.
Qed.
Lemma set_top_dice : forall fr t fr1, set_top fr t = Some fr1 -> fr_dice fr1 = fr_dice fr.
Proof.
  unfold set_top; intros fr t fr1. destruct (t <=? fr_top fr).
  - destruct (lower_top _ _ _). intros [= <-]. reflexivity.
  - destruct (raise_top _ _ _) as [[l d]|]; [|discriminate]. intros [= <-]. reflexivity.
Qed.
Lemma last_detail_dice : forall fr, fr_dice (last_detail fr) = fr_dice fr.
Proof. intros; unfold last_detail. destruct (fr_details fr); reflexivity. Qed.
Lemma push_dice : forall v fr fr1, push v fr = Some fr1 -> fr_dice fr1 = fr_dice fr.
Proof. unfold push; intros v fr fr1. destruct (_ <=? _); [discriminate|]. intros [= <-]. reflexivity. Qed.

Lemma wrap64_range : forall z, MinInt64 <= wrap64 z <= MaxInt64.
Proof. intros; unfold wrap64, MinInt64, MaxInt64, two63, two64. pose proof (Z.mod_pos_bound (z + 9223372036854775808) 18446744073709551616). lia. Qed.

(* what the budget theorems ask of the machine a run starts on: a running context, whose counter is a non-negative
   int64, and dice_ok; true of the machine `run` builds *)
Definition run_pre (m : machine) : Prop :=
  w_chain (m_w m) <> [] /\ 0 <= ops_of (m_w m) <= MaxInt64 /\ dice_ok (m_fr m).

(* The chain of contexts is touched by few operations: the sub-VM protocol (computed_execute, func_invoke and what
   calls them), the carrying of the counter along the chain in load_walk, and the charges.  Everything else leaves it
   as it is: `ch` is the chain before *)
Notation rkeep ch := (rsat (fun _ w => w_chain w = ch) (fun _ => True)).

Lemma new_arr_keep : forall l w, rkeep (w_chain w) (new_arr l w).
Proof. intros l w; unfold new_arr. destruct (alloc_arr _ _). reflexivity. Qed.
Lemma str_of_keep : forall E b v w, rkeep (w_chain w) (str_of E b v w).
Proof. intros E b v w; unfold str_of. destruct (if b then _ else _); reflexivity. Qed.
Lemma roll1_keep : forall n w, rkeep (w_chain w) (roll1 n w).
Proof. intros n w; unfold roll1. destruct (roll _ _ _ _ _) as [[r s]|]; reflexivity. Qed.
Lemma shuffle_loop_keep : forall i l w, rkeep (w_chain w) (shuffle_loop i l w).
Proof.
  induction i; intros l w; cbn [shuffle_loop]; [reflexivity|].
  apply rsat_rbind with (K := fun _ w' => w_chain w' = w_chain w); [apply roll1_keep|]. intros r w' <-. apply IHi.
Qed.

(* case analysis down to the worlds an operation returns: the one it was given with another heap, generator or log, or
   what one of the four operations above returns *)
Ltac rkeep_tac :=
  repeat first
    [ exact Logic.I | reflexivity | assumption | progress cbv zeta
    | apply new_arr_keep | apply roll1_keep | apply str_of_keep | apply shuffle_loop_keep
    | match goal with H : w_chain ?w' = _ |- rsat _ _ _ => rewrite <- H; clear H end
    | match goal with |- rsat (fun _ w => w_chain w = ?ch) _ (rbind _ _) =>
        apply rsat_rbind with (K := fun _ w => w_chain w = ch); [|cbv beta; intros] end
    | match goal with
      | |- rsat _ _ (if ?b then _ else _) => destruct b
      | |- rsat _ _ (match ?x with _ => _ end) => destruct x
      end ].

Lemma array_repeat_keep : forall id t w, rkeep (w_chain w) (array_repeat id t w).
Proof. intros id t w; unfold array_repeat. rkeep_tac. Qed.
Lemma attr_set_keep : forall v name x w, rkeep (w_chain w) (attr_set v name x w).
Proof. intros v name x w; unfold attr_set. rkeep_tac. Qed.
Lemma item_get_keep : forall a b w, rkeep (w_chain w) (item_get a b w).
Proof. intros a b w; unfold item_get. rkeep_tac. Qed.
Lemma item_set_keep : forall a b x w, rkeep (w_chain w) (item_set a b x w).
Proof. intros a b x w; unfold item_set. rkeep_tac. Qed.
Lemma slice_get_keep : forall o a b w, rkeep (w_chain w) (slice_get o a b w).
Proof. intros o a b w; unfold slice_get. rkeep_tac. Qed.
Lemma slice_set_keep : forall o a b x w, rkeep (w_chain w) (slice_set o a b x w).
Proof. intros o a b x w; unfold slice_set. rkeep_tac. Qed.
Lemma bin_op_keep : forall rf E op v1 v2 w, rkeep (w_chain w) (bin_op rf E op v1 v2 w).
Proof.
  intros rf E op v1 v2 w. unfold bin_op.
  destruct op; try exact Logic.I; destruct v1; try exact Logic.I; destruct v2; try exact Logic.I;
    rkeep_tac; apply array_repeat_keep.
Qed.
Lemma push_range_keep : forall a b w, rkeep (w_chain w) (push_range a b w).
Proof. intros a b w; unfold push_range. rkeep_tac. Qed.

Lemma attr_get_keep : forall call E v name w, v <> VThis -> rkeep (w_chain w) (attr_get call E v name w).
Proof. intros call E v name w Hv. unfold attr_get. destruct v; try congruence; rkeep_tac. Qed.

Lemma native_call_keep : forall call E name self args w,
  String.eqb name "load" = false -> String.eqb name "loadRaw" = false -> String.eqb name "Computed.compute" = false ->
  rkeep (w_chain w) (native_call call E name self args w).
Proof.
  intros call E name self args w H1 H2 H3. unfold native_call.
  destruct (native_sig name) as [np defaults]. cbv zeta. rewrite H1, H2, H3. rkeep_tac.
Qed.

(* ... and by few instructions: the five that may start a sub-VM and the six that charge for dice *)
Definition quiet (op : opcode) : bool :=
  match op with
  | OpInvoke | OpAttrGet | OpLd | OpLdRaw | OpLdD
  | OpDice | OpDiceFate | OpCocBonus | OpCocPenalty | OpDiceWod | OpDiceDC => false
  | _ => true
  end.

Notation skeep ch :=
  (ssat (fun m => w_chain (m_w m) = ch /\ dice_ok (m_fr m)) (fun m => w_chain (m_w m) = ch) (fun _ => True)).

Lemma skeep_do_push : forall ch v fr w, w_chain w = ch -> dice_ok fr -> skeep ch (do_push v fr w).
Proof.
  intros ch v fr w Hw Hd. unfold do_push. destruct (push v fr) as [fr1|] eqn:Hp; [|exact Logic.I].
  split; [exact Hw|]. unfold dice_ok in *. cbn [mk m_fr]. rewrite (push_dice _ _ _ Hp). exact Hd.
Qed.

(* what the frame primitives say of the dice states *)
Ltac dice_facts :=
  repeat match goal with
  | Hp : pop _ = (_, _) |- _ => apply pop_dice in Hp
  | Hp : pop_n _ _ = (_, _) |- _ => apply pop_n_dice in Hp
  | Hp : set_top _ _ = Some _ |- _ => apply set_top_dice in Hp
  | Hp : push _ _ = Some _ |- _ => apply push_dice in Hp
  end.
(* dice_ok of a frame built from one whose dice states are known *)
Ltac dice_tac :=
  unfold dice_ok, jump, fr_set_stack, fr_set_pc, fr_set_blocks, fr_set_dice, fr_set_wod, fr_set_dc, fr_set_details, fr_set_err, mk in *;
  cbn [fr_dice m_fr] in *; rewrite ?last_detail_dice, ?err_invalid_dice;
  first [ assumption | congruence
        | constructor; [cbn [d_times dstate0]; lia | first [assumption | congruence]]
        | match goal with
          | H : fr_dice _ = ?d :: ?r |- _ =>
            let HF := fresh "HF" in
            assert (HF : Forall (fun d => 0 <= d_times d) (d :: r)) by congruence;
            inversion HF; subst; first [assumption | constructor; [cbn [d_times]; first [assumption | lia] | assumption]]
          end ].

Ltac skeep_r0 :=
  first [ apply attr_set_keep | apply item_get_keep | apply item_set_keep | apply slice_get_keep
        | apply slice_set_keep | apply bin_op_keep | apply push_range_keep ].
Ltac skeep_r := first [ skeep_r0 | exact Logic.I | match goal with H : _ = ?r |- rsat _ _ ?r => rewrite <- H; skeep_r0 end ].

(* symbolic execution of one instruction that starts no sub-VM and charges nothing *)
Ltac skeep_go :=
  repeat (cbv beta iota zeta; first
    [ exact Logic.I
    | match goal with |- ssat _ _ _ (SStop _) => first [reflexivity | assumption] end
    | match goal with |- ssat _ _ _ (SNext (mk _ (if ?b then _ else _))) => destruct b end
    | match goal with |- ssat _ _ _ (SNext _) => split; [first [reflexivity | assumption] | dice_tac] end
    | apply skeep_do_push; [first [reflexivity | assumption] | dice_tac]
    | match goal with |- ssat _ (fun m => w_chain (m_w m) = ?ch) _ (lift _ _ _) =>
        apply (ssat_lift _ (fun _ w => w_chain w = ch)); [skeep_r | cbv beta; intros] end
    | match goal with
      | |- ssat _ _ _ (if ?b then _ else _) => destruct b eqn:?
      | |- ssat _ _ _ (match ?x with _ => _ end) => destruct x eqn:?; dice_facts
      end ]).

(* The walk: each quiet opcode's branch of `step` is followed down to its results; a result is the given world with another
   heap, generator or log (same chain by computation) or what a chain-keeping operation returned (rkeep), and its frame
   comes from the given one by pops, pushes and updates that keep the dice states or add / change one with times > 0. *)
Theorem step_quiet : forall call rf E op o m, quiet op = true -> dice_ok (m_fr m) ->
  skeep (w_chain (m_w m)) (step call rf E (I op o) m).
Proof.
  intros call rf E op o m Hq Hd.
  destruct op; try discriminate Hq; clear Hq; lazy beta iota zeta delta [step i_op i_arg];
    unfold with_pop2, with_pop, with_pop_n, with_int, need_dice, arg_int, arg_str, upd_dice.
  all: try (skeep_go; fail).
  (* ld.fs: the loop that joins the strings does not touch the world *)
  destruct o; try exact Logic.I.
  destruct ((0 <? z) && (fr_top (m_fr m) - z <? 0)); [exact Logic.I|].
  match goal with |- ssat _ _ _ (?f ?l0 ?a0) => cut (forall l acc, skeep (w_chain (m_w m)) (f l acc)); [intros Hx; apply Hx|] end.
  induction l as [|v l IH]; intros acc; cbv beta iota.
  - destruct (stack_size <=? fr_top (m_fr m) - z); [exact Logic.I|].
    destruct (set_top (m_fr m) (fr_top (m_fr m) - z)) as [fr1|] eqn:Hs; [|exact Logic.I].
    apply skeep_do_push; [reflexivity|]. unfold dice_ok in *. rewrite (set_top_dice _ _ _ Hs). exact Hd.
  - destruct (to_string _ _ v); [apply IH|exact Logic.I].
Qed.

Lemma nth_error_chain_put : forall (l : list ctx) k x rest, (k < length l)%nat ->
  nth_error (chain_put (firstn k l) x rest) k = Some x.
Proof.
  intros l k x rest Hlen. unfold chain_put.
  rewrite nth_error_app2 by (rewrite firstn_length_le; lia).
  rewrite firstn_length_le by lia. rewrite Nat.sub_diag. reflexivity.
Qed.

Lemma ops_at_set : forall k v w c, nth_error (w_chain w) k = Some c -> ops_at k (set_ops_at k v w) = v.
Proof.
  intros k v w c Hn. unfold set_ops_at, ops_at. rewrite Hn. cbn [w_set_chain w_chain].
  rewrite nth_error_chain_put by (apply nth_error_Some; congruence). reflexivity.
Qed.
Lemma ops_of_set_at_S : forall k v w, ops_of (set_ops_at (S k) v w) = ops_of w.
Proof.
  intros k v w. unfold set_ops_at, ops_of, w_self. destruct (w_chain w) as [|x r] eqn:Hc; cbn [nth_error]; [rewrite Hc; reflexivity|].
  destruct (nth_error r k); [reflexivity|rewrite Hc; reflexivity].
Qed.

Lemma set_ops_at_Forall : forall (P : Z -> Prop) k v w, P v ->
  Forall (fun c => P (c_ops c)) (w_chain w) -> Forall (fun c => P (c_ops c)) (w_chain (set_ops_at k v w)).
Proof.
  intros P k v w Hv H. unfold set_ops_at. destruct (nth_error (w_chain w) k); [|exact H]. cbn [w_set_chain w_chain].
  apply Forall_app. split; [apply Forall_take; exact H|]. constructor; [exact Hv|apply Forall_drop; exact H].
Qed.
Lemma set_ops_at_nonempty : forall k v w, w_chain w <> [] -> w_chain (set_ops_at k v w) <> [].
Proof.
  intros k v w H. unfold set_ops_at. destruct (nth_error (w_chain w) k); [|exact H]. cbn [w_set_chain w_chain].
  unfold chain_put. destruct (firstn k (w_chain w)); discriminate.
Qed.

Lemma sync_to_ge : forall k w c, nth_error (w_chain w) k = Some c -> ops_of (sync_to k w) <= ops_at k (sync_to k w).
Proof.
  intros k w c Hn. destruct k as [|k]; [cbn [sync_to]; rewrite ops_at_0; lia|].
  unfold sync_to. destruct (ops_at (S k) w <? ops_at 0 w) eqn:Hlt.
  - rewrite ops_of_set_at_S, (ops_at_set _ _ _ _ Hn), ops_at_0. lia.
  - apply Z.ltb_ge in Hlt. rewrite <- ops_at_0. exact Hlt.
Qed.

(* One pass over the instructions, for any
   invariant PW of the context chain that (1) looks at the chain only and bounds the running context's counter,
   (2) survives raising that counter to a value within the limit, (3) survives carrying the counter to a calling
   context and back, (4) is handed on by a sub-VM that ran to its end *)
Notation rchain PW := (rsat (fun _ w => PW w) (fun _ => True)).
Notation schain PW := (ssat (fun m => PW (m_w m) /\ dice_ok (m_fr m)) (fun m => PW (m_w m)) (fun _ => True)).

Record chain_inv (call : machine -> result) (E : env) (L : Z) (PW : world -> Prop) : Prop := {
  inv_chain : forall w w', w_chain w' = w_chain w -> PW w -> PW w';                   (* PW looks at the chain only *)
  inv_ops : forall w, PW w -> 0 <= ops_of w <= MaxInt64;                               (* so that no charge wraps *)
  inv_raise : forall w x, PW w -> ops_of w <= x <= L -> PW (w_set_self_ops w x);       (* a charge within the limit *)
  inv_to : forall k w, PW w -> PW (sync_to k w);                                       (* load_walk, before context k is asked *)
  inv_back : forall k w, PW w -> PW (sync_back k w);                                   (* ... and after *)
  (* a sub-VM started for context k (k = 0: for the running context, which must then be within the limit) ran to its end *)
  inv_sub : forall k w sub m' w', PW w -> ops_of w <= ops_at k w -> (k = 0%nat -> ops_of w <= L) ->
    started E k w sub -> call sub = Fin m' -> returned k w m' w' -> PW w' }.

Section ChainPass.
  Variable call : machine -> result.
  Variable rfuel : nat.
  Variable E : env.
  Variable L : Z.
  Hypothesis HL : cfg_op_limit (e_cfg E) = L.
  Hypothesis HLr : 0 < L <= MaxInt64 - 100.
  Variable PW : world -> Prop.
  Hypothesis HPW : chain_inv call E L PW.

  Lemma rchain_keep : forall A w (r : R A), PW w -> rkeep (w_chain w) r -> rchain PW r.
  Proof. intros A w r Hw H. destruct r; try exact Logic.I. exact (inv_chain _ _ _ _ HPW w _ H Hw). Qed.

  Lemma computed_execute_chain : forall cid k w, PW w -> ops_of w <= ops_at k w -> (k = 0%nat -> ops_of w <= L) ->
    rchain PW (computed_execute call E cid k w).
  Proof.
    intros cid k w Hw Hge Hk. destruct (computed_execute call E cid k w) as [v w'| | | |] eqn:He; try exact Logic.I.
    apply computed_execute_ROk in He as (sub & m' & Hs & Hc & Hr).
    exact (inv_sub _ _ _ _ HPW k w sub m' w' Hw Hge Hk (ce_sub_started _ _ _ _ _ Hs) Hc Hr).
  Qed.

  Lemma func_invoke_chain : forall fid args w, PW w -> ops_of w <= L -> rchain PW (func_invoke call E fid args w).
  Proof.
    intros fid args w Hw Hk. destruct (func_invoke call E fid args w) as [v w'| | | |] eqn:He; try exact Logic.I.
    apply func_invoke_ROk in He as (sub & m' & Hs & Hc & Hr).
    refine (inv_sub _ _ _ _ HPW 0%nat w sub m' w' Hw _ (fun _ => Hk) (fi_sub_started _ _ _ _ _ Hs) Hc Hr). rewrite ops_at_0. lia.
  Qed.

  Lemma load_walk_chain : forall n k name isRaw w, PW w -> (k = 0%nat -> ops_of w <= L) ->
    rchain PW (load_walk call E n k name isRaw w).
  Proof.
    induction n; intros k name isRaw w Hw Hk; cbn [load_walk]; [exact Hw|].
    destruct (nth_error (w_chain w) k) eqn:Hn; [|exact Hw]. cbv zeta.
    pose proof (inv_to _ _ _ _ HPW k w Hw) as Hw0.
    apply rsat_rbind with (K := fun _ w => PW w).
    - assert (Hb : forall A (r : R A), rchain PW r -> rchain PW (rmapw (sync_back k) r))
        by (intros A r H; destruct r; cbn; auto; apply (inv_back _ _ _ _ HPW); exact H).
      apply Hb. destruct (match mget name _ with Some v => v | None => VNull end); try exact Hw0.
      destruct isRaw; [exact Hw0|]. apply computed_execute_chain; [exact Hw0|exact (sync_to_ge _ _ _ Hn)|].
      intros ->. exact (Hk eq_refl).
    - intros v w' Hw'. destruct v; try exact Hw'. apply IHn; [exact Hw'|discriminate].
  Qed.

  Lemma load_name_chain : forall name isRaw w, PW w -> ops_of w <= L -> rchain PW (load_name call E name isRaw w).
  Proof. intros; apply load_walk_chain; auto. Qed.

  Lemma load_local_chain : forall name w, PW w -> ops_of w <= L -> rchain PW (load_local call E name w).
  Proof.
    intros name w Hw Hk. unfold load_local.
    destruct (match mget name _ with Some v => v | None => VNull end); try exact Hw.
    apply computed_execute_chain; [exact Hw|rewrite ops_at_0; lia|intros _; exact Hk].
  Qed.

  Lemma attr_get_chain : forall v name w, PW w -> ops_of w <= L -> rchain PW (attr_get call E v name w).
  Proof.
    intros v name w Hw Hk.
    destruct v; try (apply (rchain_keep _ w); [exact Hw|apply attr_get_keep; discriminate]).
    cbn [attr_get]. apply rsat_rbind with (K := fun _ w => PW w); [apply load_local_chain; assumption|intros; assumption].
  Qed.

  Lemma native_call_chain : forall name self args w, PW w -> ops_of w <= L -> rchain PW (native_call call E name self args w).
  Proof.
    intros name self args w Hw Hk.
    destruct (String.eqb name "load") eqn:H1; [|destruct (String.eqb name "loadRaw") eqn:H2;
      [|destruct (String.eqb name "Computed.compute") eqn:H3; [|apply (rchain_keep _ w); [exact Hw|apply native_call_keep; assumption]]]].
    all: apply String.eqb_eq in H1 || apply String.eqb_eq in H2 || apply String.eqb_eq in H3; subst name; unfold native_call; cbn;
      (destruct (negb _); [exact Logic.I|]).
    - destruct (nth 0 _ VNull); try exact Logic.I. apply load_name_chain; assumption.
    - destruct (nth 0 _ VNull); try exact Logic.I. apply load_name_chain; assumption.
    - destruct self; try exact Logic.I. apply computed_execute_chain; [exact Hw|rewrite ops_at_0; lia|intros _; exact Hk].
  Qed.

  Lemma schain_do_push : forall v fr w, PW w -> dice_ok fr -> schain PW (do_push v fr w).
  Proof.
    intros v fr w Hw Hd. unfold do_push. destruct (push v fr) as [fr1|] eqn:Hp; [|exact Logic.I].
    split; [exact Hw|]. unfold dice_ok in *. cbn [mk m_fr]. rewrite (push_dice _ _ _ Hp). exact Hd.
  Qed.
  Lemma schain_dice_result : forall z fr w, PW w -> dice_ok fr -> schain PW (dice_result z fr w).
  Proof. intros; unfold dice_result. apply schain_do_push; [assumption|]. unfold dice_ok in *. rewrite last_detail_dice. assumption. Qed.

  Lemma PW_charged : forall w n s, PW w -> 0 <= n -> over_by E w n = false -> PW (w_set_pcg (charged E w n) s).
  Proof.
    intros w n s Hw Hn Hov. apply (inv_chain _ _ _ _ HPW (charged E w n)); [reflexivity|]. unfold charged. apply (inv_raise _ _ _ _ HPW); [exact Hw|].
    assert (HLr' : 0 < L < MaxInt64) by (unfold MaxInt64 in *; lia).
    destruct (charge_in E L w n HL HLr' (inv_ops _ _ _ _ HPW w Hw) Hn Hov) as [-> C]. lia.
  Qed.

  Lemma schain_rounds : forall w fr r k, PW w -> dice_ok fr -> rounds_charged L (ops_of w) r k -> schain PW (rounds_step fr w r).
  Proof.
    intros w fr r k Hw Hd (K1 & K2 & K3). destruct r; try exact Logic.I. apply schain_dice_result; [|exact Hd].
    apply (inv_chain _ _ _ _ HPW (w_set_self_ops w ops)); [reflexivity|]. apply (inv_raise _ _ _ _ HPW); [exact Hw|lia].
  Qed.

  Theorem step_chain : forall ins m, PW (m_w m) -> ops_of (m_w m) <= L -> dice_ok (m_fr m) ->
    schain PW (step call rfuel E ins m).
  Proof.
    intros [op o] m Hw Hk Hd. destruct (quiet op) eqn:Hq.
    { pose proof (step_quiet call rfuel E op o m Hq Hd) as H.
      destruct (step call rfuel E (I op o) m); try exact Logic.I; cbn [ssat] in *.
      - split; [exact (inv_chain _ _ _ _ HPW _ _ (proj1 H) Hw)|exact (proj2 H)].
      - exact (inv_chain _ _ _ _ HPW _ _ H Hw). }
    assert (HLr' : 0 < L < MaxInt64) by (unfold MaxInt64 in *; lia).
    pose proof (inv_ops _ _ _ _ HPW _ Hw) as Hops.
    destruct op; try discriminate Hq; clear Hq; unfold step; cbn [i_op i_arg];
      unfold with_pop, with_pop_n, with_int, arg_int, arg_str.
    1-3: (* ld, ld.d, ld.raw *)
      destruct o; try exact Logic.I; (apply (ssat_lift _ (fun _ w => PW w)); [apply load_name_chain; assumption|]);
      intros; (apply schain_do_push; [assumption|]); unfold dice_ok in *; rewrite ?last_detail_dice; exact Hd.
    { (* invoke *)
      destruct o as [|n| | | | | | |]; try exact Logic.I.
      destruct (pop_n n (m_fr m)) as [args fr1] eqn:P1. destruct (pop fr1) as [f fr2] eqn:P2. dice_facts.
      assert (Hd2 : dice_ok fr2) by (unfold dice_ok in *; congruence).
      destruct f; try (split; [exact Hw|exact Hd2]).
      + apply (ssat_lift _ (fun _ w => PW w)); [apply func_invoke_chain; assumption|]. intros; apply schain_do_push; assumption.
      + apply (ssat_lift _ (fun _ w => PW w)); [apply native_call_chain; assumption|]. intros; apply schain_do_push; assumption. }
    { (* attr.get *)
      destruct (pop (m_fr m)) as [obj fr1] eqn:P1. dice_facts. assert (Hd1 : dice_ok fr1) by (unfold dice_ok in *; congruence).
      destruct o; try exact Logic.I.
      apply (ssat_lift _ (fun _ w => PW w)); [apply attr_get_chain; assumption|]. intros r w1 Hw1.
      destruct r; [apply schain_do_push; assumption|exact Logic.I]. }
    { (* dice: the head of the dice states is what is rolled *)
      destruct (fr_dice (m_fr m)) as [|d rest] eqn:Hfd; [unfold need_dice; rewrite Hfd; exact Logic.I|].
      assert (Hd0 : 0 <= d_times d /\ Forall (fun d => 0 <= d_times d) rest)
        by (unfold dice_ok in Hd; rewrite Hfd in Hd; inversion Hd; auto).
      destruct (pop (m_fr m)) as [v fr1] eqn:P1. destruct v; try exact Logic.I.
      repeat match goal with |- ssat _ _ _ (if ?b then SFail _ _ else _) => destruct b; [exact Logic.I|] end.
      rewrite add_ops_spec. destruct (over_by E (m_w m) (d_times d)) eqn:Ho; [exact Logic.I|].
      destruct (dice_cap <? d_times d); [exact Logic.I|].
      destruct (roll_common _ _ _ _ _ _ _ _ _ _ _) as [[[num x] s]|]; [|exact Logic.I].
      apply schain_dice_result; [apply PW_charged; tauto|exact (proj2 Hd0)]. }
    1-2: (* coc.penalty, coc.bonus *)
      destruct (pop (m_fr m)) as [v fr1] eqn:P1; dice_facts; assert (Hd1 : dice_ok fr1) by (unfold dice_ok in *; congruence);
      destruct v as [n| | | | | | | |]; try exact Logic.I; cbv beta iota;
      (destruct (n <? 0) eqn:Hn; [exact Logic.I|]); apply Z.ltb_ge in Hn;
      rewrite add_ops_spec; (destruct (over_by E (m_w m) n) eqn:Ho; [exact Logic.I|]);
      (destruct (dice_cap <? n); [exact Logic.I|]); (destruct (roll_coc _ _ _ _ _ _) as [[[r x] s]|]; [|exact Logic.I]);
      apply schain_dice_result; [apply PW_charged; assumption|exact Hd1].
    { (* dice.fate *)
      rewrite add_ops_spec. destruct (over_by E (m_w m) 4) eqn:Ho; [exact Logic.I|].
      destruct (roll_fate _ _ _ _) as [[[sum x] s]|]; [|exact Logic.I].
      apply schain_dice_result; [apply PW_charged; [exact Hw|lia|exact Ho]|exact Hd]. }
    { (* dice.wod *)
      destruct (pop (m_fr m)) as [v fr1] eqn:P1. dice_facts. assert (Hd1 : dice_ok fr1) by (unfold dice_ok in *; congruence).
      destruct v; try exact Logic.I. cbv beta iota zeta.
      destruct (negb (wod_check _ _ _ _)) eqn:Hc; [exact Logic.I|]. apply wod_check_pool in Hc.
      change (c_ops (w_self (m_w m))) with (ops_of (m_w m)).
      match goal with |- context [wod_budget ?a ?b ?c ?d ?e ?f ?g ?h ?i ?j ?k] =>
        destruct (C07_wod_rounds_charged b L c d e f g HL HLr' a h i j k Hops Hc) as [Hf Hr]; rewrite <- Hf end.
      exact (schain_rounds _ _ _ _ Hw Hd1 Hr). }
    { (* dice.dc *)
      destruct (pop (m_fr m)) as [v fr1] eqn:P1. dice_facts. assert (Hd1 : dice_ok fr1) by (unfold dice_ok in *; congruence).
      destruct v; try exact Logic.I. cbv beta iota zeta.
      destruct (negb (dc_check _ _ _)) eqn:Hc; [exact Logic.I|]. apply dc_check_pool in Hc.
      change (c_ops (w_self (m_w m))) with (ops_of (m_w m)).
      match goal with |- context [dc_budget ?a ?b ?c ?d ?e ?f ?g ?h ?i] =>
        destruct (C07_dc_rounds_charged b L c d e HL HLr' a f g h i Hops Hc) as [Hf Hr]; rewrite <- Hf end.
      exact (schain_rounds _ _ _ _ Hw Hd1 Hr). }
  Qed.
End ChainPass.

(* The counter only grows.  The limit is at most MaxInt64 - 100 throughout: a call adds 100 to a counter that is within the
   limit, and the sum must not wrap around int64 (C07_call_charge_wraps_near_MaxInt64 shows what happens otherwise). *)
Section Mono.
  Variable call : machine -> result.
  Variable rfuel : nat.
  Variable E : env.
  Variable L : Z.
  Hypothesis HL : cfg_op_limit (e_cfg E) = L.
  Hypothesis HLr : 0 < L <= MaxInt64 - 100.
  Hypothesis Hcall : forall m m', run_pre m -> call m = Fin m' -> ops_of (m_w m) <= ops_of (m_w m') <= MaxInt64.
  Variable c1 : Z.
  Hypothesis Hc1 : 0 <= c1.

  Definition W (w : world) : Prop := w_chain w <> [] /\ c1 <= ops_of w <= MaxInt64.

  Lemma W_chain : forall w w', w_chain w' = w_chain w -> W w -> W w'.
  Proof. unfold W, ops_of, w_self; intros w w' H. rewrite H. auto. Qed.

  Lemma W_set_self_ops : forall w x, W w -> ops_of w <= x <= MaxInt64 -> W (w_set_self_ops w x).
  Proof.
    intros w x [H1 H2] H3. split; [|rewrite ops_of_set_self by exact H1; lia].
    unfold w_set_self_ops. destruct (w_chain w); [congruence|discriminate].
  Qed.

  (* carrying the counter to a calling context leaves the running context's counter alone; carrying it back only
     raises it, to an int64 *)
  Lemma W_sync_to : forall k w, W w -> W (sync_to k w).
  Proof.
    intros k w Hw. destruct k as [|k]; [exact Hw|]. unfold sync_to. destruct (_ <? _); [|exact Hw].
    destruct Hw as [H1 H2]. split; [apply set_ops_at_nonempty; exact H1|rewrite ops_of_set_at_S; exact H2].
  Qed.

  Lemma W_sync_back : forall k w, W w -> W (sync_back k w).
  Proof.
    intros k w Hw. destruct k as [|k]; [exact Hw|]. unfold sync_back. cbv zeta.
    destruct (ops_at 0 w <? wrap64 (ops_at (S k) w)) eqn:Hlt; [|exact Hw]. apply Z.ltb_lt in Hlt.
    destruct Hw as [H1 H2]. split; [apply set_ops_at_nonempty; exact H1|].
    destruct (w_chain w) as [|x r] eqn:Hc; [congruence|].
    rewrite <- ops_at_0, (ops_at_set 0 _ w x) by (rewrite Hc; reflexivity). rewrite ops_at_0 in Hlt.
    pose proof (wrap64_range (ops_at (S k) w)). lia.
  Qed.

  (* a sub-VM started for the running context hands back a counter that is its start counter (this one + 100) or more *)
  Lemma W_sub : forall k w sub m' w', W w -> ops_of w <= ops_at k w -> (k = 0%nat -> ops_of w <= L) ->
    started E k w sub -> call sub = Fin m' -> returned k w m' w' -> W w'.
  Proof.
    intros k w sub m' w' [H1 H2] Hge Hk Hs Hc Hr. split; [exact (returned_nonempty _ _ _ _ Hr)|].
    rewrite (returned_ops _ _ _ _ Hr H1). destruct k as [|k]; [|exact H2].
    destruct (started_head _ _ _ _ Hs) as (S1 & S2 & S3 & _). specialize (Hk eq_refl).
    rewrite ops_at_0, wrap64_id in S3 by (unfold in_i64, two63, MaxInt64 in *; lia).
    destruct (Hcall sub m') as [A1 A2]; [|exact Hc|lia].
    split; [exact S1|]. split; [unfold MaxInt64 in *; lia|]. unfold dice_ok. rewrite S2. constructor.
  Qed.

  Lemma W_inv : chain_inv call E L W.
  Proof.
    split; [exact W_chain|intros w [_ H]; lia| |exact W_sync_to|exact W_sync_back|exact W_sub].
    intros w x Hw Hx. apply W_set_self_ops; [exact Hw|unfold MaxInt64 in *; lia].
  Qed.

  (* ... together with a property P of every counter of the chain that holds of the values the pass writes, when the
     sub-VMs that run to their end leave such a chain *)
  Variable P : Z -> Prop.
  Definition WP (w : world) : Prop := W w /\ Forall (fun c => P (c_ops c)) (w_chain w).
  Hypothesis P_raise : forall x, c1 <= x <= L -> P x.
  Hypothesis P_back : forall k w, WP w -> P (wrap64 (ops_at k w)).
  Hypothesis P_sub : forall k w sub m', WP w -> ops_of w <= ops_at k w -> started E k w sub -> call sub = Fin m' ->
    Forall (fun c => P (c_ops c)) (w_chain (m_w m')).

  Lemma WP_inv : chain_inv call E L WP.
  Proof.
    assert (Hhd : forall w, WP w -> P (ops_at 0 w)).
    { intros w [[Hne _] Hp]. unfold ops_at. destruct (w_chain w); [congruence|]. exact (Forall_inv Hp). }
    split.
    - intros w w' H [Hw Hp]. split; [exact (W_chain w w' H Hw)|rewrite H; exact Hp].
    - intros w [Hw _]. exact (inv_ops _ _ _ _ W_inv w Hw).
    - intros w x [Hw Hp] Hx. split; [exact (inv_raise _ _ _ _ W_inv w x Hw Hx)|].
      apply set_self_ops_Forall; [apply P_raise; destruct Hw as [_ Hw]; lia|exact Hp].
    - intros k w Hw. split; [apply W_sync_to; exact (proj1 Hw)|]. destruct k; [exact (proj2 Hw)|]. unfold sync_to.
      destruct (_ <? _); [|exact (proj2 Hw)]. apply set_ops_at_Forall; [exact (Hhd w Hw)|exact (proj2 Hw)].
    - intros k w Hw. split; [apply W_sync_back; exact (proj1 Hw)|]. destruct k; [exact (proj2 Hw)|]. unfold sync_back. cbv zeta.
      destruct (_ <? _); [|exact (proj2 Hw)]. apply set_ops_at_Forall; [exact (P_back _ w Hw)|exact (proj2 Hw)].
    - intros k w sub m' w' Hw Hge Hk Hs Hc Hr. split; [exact (W_sub k w sub m' w' (proj1 Hw) Hge Hk Hs Hc Hr)|].
      exact (returned_Forall _ _ _ _ P Hr (proj2 Hw) (P_sub k w sub m' Hw Hge Hs Hc)).
  Qed.
End Mono.

Lemma counted_in : forall E L m, cfg_op_limit (e_cfg E) = L -> 0 < L < MaxInt64 ->
  w_chain (m_w m) <> [] -> 0 <= ops_of (m_w m) <= MaxInt64 -> snd (ops_add (e_cfg E) (ops_of (m_w m)) 1) = false ->
  ops_of (m_w (counted E m)) = ops_of (m_w m) + 1 /\ ops_of (m_w m) + 1 <= L /\ w_chain (m_w (counted E m)) <> [].
Proof.
  intros E L m HL HLr Hch Hops Hov. rewrite counted_ops by exact Hch.
  destruct (charge_in E L (m_w m) 1 HL HLr Hops ltac:(lia) Hov) as [-> C2].
  split; [reflexivity|]. split; [exact C2|]. unfold counted, w_set_self_ops; cbn [m_w].
  destruct (w_chain (m_w m)); [congruence|discriminate].
Qed.

Lemma exec_mono_bound_aux : forall E L, cfg_op_limit (e_cfg E) = L -> 0 < L <= MaxInt64 - 100 ->
  forall fuel m, run_pre m ->
  (forall m', fst (exec_count fuel E m) = Fin m' -> ops_of (m_w m) <= ops_of (m_w m') <= MaxInt64) /\
  Z.of_nat (snd (exec_count fuel E m)) <= Z.max 0 (L - ops_of (m_w m)).
Proof.
  intros E L HL HLr. assert (HLr' : 0 < L < MaxInt64) by (unfold MaxInt64 in *; lia).
  induction fuel as [|f IH]; intros m (Hch & Hops & Hdice).
  - cbn. split; [discriminate|lia].
  - rewrite exec_count_S. destruct (exec_head E m) as [r|ins] eqn:Hh; cbn [fst snd].
    { split; [|lia]. intros m' ->. apply exec_head_Fin in Hh. subst m'. lia. }
    destruct (counted_in E L m HL HLr' Hch Hops (exec_head_inr _ _ _ Hh)) as (C1 & C2 & C3).
    assert (Hcall : forall m0 m', run_pre m0 -> exec f E m0 = Fin m' -> ops_of (m_w m0) <= ops_of (m_w m') <= MaxInt64)
      by (intros m0 m' P0; rewrite <- exec_count_fst; apply (IH m0 P0)).
    pose proof (step_chain (exec f E) f E L HL HLr _ (W_inv (exec f E) E L HLr Hcall (ops_of (m_w m) + 1) ltac:(lia)) ins (counted E m)) as HQ.
    rewrite C1 in HQ. specialize (HQ ltac:(split; [exact C3|lia]) C2 Hdice).
    destruct (step (exec f E) f E ins (counted E m)) as [m2|m2|e m2|s| |s]; cbn [exec_after fst snd]; try (split; [discriminate|lia]).
    + destruct HQ as [[W1 W2] D2].
      destruct (IH (next_pc m2)) as [I1 I2]; [split; [exact W1|split; [cbn [next_pc m_w]; lia|exact D2]]|].
      cbn [next_pc m_w] in I1, I2. split; [|lia]. intros m' Hm'. specialize (I1 m' Hm'). lia.
    + destruct HQ as [_ W2]. split; [|lia]. intros m' [= <-]. lia.
Qed.

(* under a limit L the running context dispatches at most L - c0 instructions (a call into a
   sub-VM is one dispatch of the caller; the callee is bounded by the same theorem from ITS start
   counter, which is the caller's + 100), and its counter never goes down *)
Theorem C07_budget_bounds_dispatches : forall E L, cfg_op_limit (e_cfg E) = L -> 0 < L <= MaxInt64 - 100 ->
  forall fuel m, run_pre m ->
  fst (exec_count fuel E m) = exec fuel E m /\
  Z.of_nat (snd (exec_count fuel E m)) <= Z.max 0 (L - ops_of (m_w m)).
Proof. intros E L HL HLr fuel m Hpre. split; [apply exec_count_fst|apply (exec_mono_bound_aux E L); assumption]. Qed.

Theorem C07_counter_never_lowered : forall E L, cfg_op_limit (e_cfg E) = L -> 0 < L <= MaxInt64 - 100 ->
  forall fuel m m', run_pre m -> exec fuel E m = Fin m' -> ops_of (m_w m) <= ops_of (m_w m') <= MaxInt64.
Proof. intros E L HL HLr fuel m m' Hpre. rewrite <- exec_count_fst. apply (exec_mono_bound_aux E L); assumption. Qed.

(* the machine `run` starts: counter 0, so at most L dispatches of the main code *)
Corollary C07_run_dispatch_bound : forall E L c src st fuel, cfg_op_limit (e_cfg E) = L -> 0 < L <= MaxInt64 - 100 ->
  let m0 := {| m_fr := new_frame c (Some src);
               m_w := {| w_heap := vs_heap st; w_pcg := vs_pcg st; w_st := [];
                         w_chain := [{| c_attrs := vs_attrs st; c_ops := 0 |}] |} |} in
  (snd (exec_count fuel E m0) <= Z.to_nat L)%nat.
Proof.
  intros E L c src st fuel HL HLr m0.
  destruct (C07_budget_bounds_dispatches E L HL HLr fuel m0) as [_ H].
  { unfold run_pre, m0, ops_of, w_self, dice_ok, MaxInt64; cbn. split; [discriminate|]. split; [lia|constructor]. }
  change (ops_of (m_w m0)) with 0 in H. lia.
Qed.

(* a call / a computed evaluation costs 100: the callee's counter starts at caller + 100 (the callee is
   only ever run on such a machine), and when that exceeds the limit the callee is not started *)
Theorem C07_call_costs_100 : forall E fid args w self ups,
  w_chain w = self :: ups ->
  let ops1 := wrap64 (c_ops self + 100) in
  (forall call1 call2,
     (forall sub, ops_of (m_w sub) = ops1 -> fr_pc (m_fr sub) = 0 -> fr_live (m_fr sub) = [] -> call1 sub = call2 sub) ->
     func_invoke call1 E fid args w = func_invoke call2 E fid args w) /\
  (limit_hit E ops1 = true -> forall call d, f_lookup (e_ftab E) fid = Some d -> length (f_params d) = length args ->
     exists w1, func_invoke call E fid args w = RFail EBudget w1 /\ ops_of w1 = ops1 /\ w_pcg w1 = w_pcg w).
Proof.
  intros E fid args w self ups Hc ops1. split.
  - intros call1 call2 H. unfold func_invoke. rewrite Hc.
    destruct (f_lookup (e_ftab E) fid) as [d|]; [|reflexivity]. destruct (negb _); [reflexivity|].
    destruct (alloc_map _ _) as [mapid h1]. fold ops1. destruct (limit_hit E ops1); [reflexivity|].
    destruct (f_code d) as [body|]; [|reflexivity]. rewrite H; reflexivity.
  - intros Hl call d Hd Hlen. unfold func_invoke. rewrite Hc, Hd, Hlen, Nat.eqb_refl. cbn [negb].
    destruct (alloc_map _ _) as [mapid h1]. fold ops1. rewrite Hl. eexists; split; [reflexivity|]. split; reflexivity.
Qed.

Theorem C07_computed_costs_100 : forall E cid w self ups,
  w_chain w = self :: ups ->
  let ops1 := wrap64 (c_ops self + 100) in
  (forall call1 call2,
     (forall sub, ops_of (m_w sub) = ops1 -> fr_pc (m_fr sub) = 0 -> fr_live (m_fr sub) = [] -> call1 sub = call2 sub) ->
     computed_execute call1 E cid 0 w = computed_execute call2 E cid 0 w) /\
  (limit_hit E ops1 = true -> forall call,
     exists w1, computed_execute call E cid 0 w = RFail EBudget w1 /\ ops_of w1 = ops1 /\ w_pcg w1 = w_pcg w).
Proof.
  intros E cid w self ups Hc ops1. split.
  - intros call1 call2 H. unfold computed_execute. rewrite Hc. cbn [nth_error firstn skipn].
    destruct (cattrs_force cid (w_heap w)) as [mapid h1]. fold ops1. destruct (limit_hit E ops1); [reflexivity|].
    destruct (f_lookup (e_ftab E) cid) as [d|]; [|reflexivity].
    destruct (f_code d) as [body|]; [|reflexivity]. rewrite H; reflexivity.
  - intros Hl call. unfold computed_execute. rewrite Hc. cbn [nth_error firstn skipn].
    destruct (cattrs_force cid (w_heap w)) as [mapid h1]. fold ops1. rewrite Hl. eexists; split; [reflexivity|]. split; reflexivity.
Qed.

Print Assumptions C07_budget_bounds_dispatches.
Print Assumptions C07_counter_never_lowered.
Print Assumptions C07_call_costs_100.

(* non-vacuity: the loop program under a limit of 10 stops with the budget error after exactly 10 dispatches *)
Definition env_lim (L : Z) : env :=
  {| e_ftab := []; e_cfg := {| cfg_ignore_div0 := false; cfg_min_mode := false; cfg_max_mode := false; cfg_op_limit := L;
                               cfg_def_expr_empty := true; cfg_st_callback := false |} |}.
Example C07_budget_example :
  (exists st', run 100 (env_lim 10) prog_while "x=1; while x<3 {x=x+1}; x" st0 = Err EBudget st' /\ vs_ops st' = 11) /\
  snd (exec_count 100 (env_lim 10)
         {| m_fr := new_frame prog_while (Some "x=1; while x<3 {x=x+1}; x"%string);
            m_w := {| w_heap := vs_heap st0; w_pcg := vs_pcg st0; w_st := [];
                      w_chain := [{| c_attrs := vs_attrs st0; c_ops := 0 |}] |} |}) = 10%nat.
Proof. split; [eexists; split; vm_compute; reflexivity|vm_compute; reflexivity]. Qed.

(* edge of the +100 charge: with a limit within 100 of MaxInt64 the int64 addition wraps and the limit test
   of the call passes on a NEGATIVE counter (so "never lowered" needs L <= MaxInt64 - 100); the run still
   fails closed, because numOpCountAdd's own overflow test `MaxInt64 - ops < count` overflows for a negative
   counter and saturates it: the callee's first dispatch reports the budget error *)
Definition ftab_one : ftab :=
  [ {| f_computed := false; f_name := "f"; f_params := []; f_expr := "return 1";
       f_code := Some [I OpPushInt (OInt 1); I OpRet ONil] |} ].
Example C07_call_charge_wraps_near_MaxInt64 :
  let E := {| e_ftab := ftab_one; e_cfg := e_cfg (env_lim (MaxInt64 - 50)) |} in
  let w := {| w_heap := vs_heap st0; w_pcg := vs_pcg st0; w_st := [];
              w_chain := [{| c_attrs := vs_attrs st0; c_ops := MaxInt64 - 60 |}] |} in
  match func_invoke (exec 10 E) E 0 [] w with
  | RFail EBudget w' => ops_of w' = MaxInt64      (* the callee's saturated counter is charged to the caller *)
  | _ => False
  end.
Proof. vm_compute. reflexivity. Qed.

Print Assumptions C07_ops_add_spec.
Print Assumptions C07_dispatch_counts.
Print Assumptions C07_budget_error_once_exceeded.
Print Assumptions C07_dice_batch_charged_before_rolling.
Print Assumptions C07_coc_batch_charged_before_rolling.
Print Assumptions C07_wod_dc_rounds_charged.
Print Assumptions C07_wod_dc_rounds_charged_step.
Print Assumptions C07_run_dispatch_bound.
Print Assumptions C07_computed_costs_100.

(* C01, where values come from.  No instruction creates the bound method Computed.compute (attr.get on a computed value reads only its
   attribute map), so a state that holds none never holds one: the "nil Self" site is unreachable from
   such a state, whatever the code. *)
Definition vgood (v : value) : Prop :=
  match v with VNative n _ => String.eqb n "Computed.compute" = false | _ => True end.
Definition lgood (l : list value) : Prop := Forall vgood l.
Definition mgood (m : vmap) : Prop := Forall (fun kv => vgood (snd kv)) m.
Definition heap_good (h : heap) : Prop :=
  Forall (fun p => lgood (snd p)) (h_arrs h) /\ Forall (fun p => mgood (snd p)) (h_maps h).

Lemma aget_Forall : forall A (P : A -> Prop) k m x, Forall (fun p => P (snd p)) m -> aget k m = Some x -> P x.
Proof.
  induction m as [|[k' v] m IH]; intros x H; cbn [aget]; [discriminate|]. inversion H; subst.
  destruct (k =? k')%N; [intros [= <-]; assumption|auto].
Qed.
Lemma aset_Forall : forall A (P : A -> Prop) k x m, Forall (fun p => P (snd p)) m -> P x -> Forall (fun p => P (snd p)) (aset k x m).
Proof.
  induction m as [|[k' v] m IH]; intros H Hx; cbn [aset]; [repeat constructor; assumption|]. inversion H; subst.
  destruct (k =? k')%N; constructor; auto.
Qed.

Lemma get_arr_good : forall id h, heap_good h -> lgood (get_arr id h).
Proof. unfold get_arr; intros id h [H _]. destruct (aget id (h_arrs h)) eqn:E; [exact (aget_Forall _ _ _ _ _ H E)|constructor]. Qed.
Lemma get_map_good : forall id h, heap_good h -> mgood (get_map id h).
Proof. unfold get_map; intros id h [_ H]. destruct (aget id (h_maps h)) eqn:E; [exact (aget_Forall _ _ _ _ _ H E)|constructor]. Qed.
Lemma cattrs_get_good : forall cid h, heap_good h -> mgood (cattrs_get cid h).
Proof. unfold cattrs_get; intros. destruct (aget cid (h_cattrs h)); [apply get_map_good; assumption|constructor]. Qed.

Lemma mget_good : forall k m v, mgood m -> mget k m = Some v -> vgood v.
Proof.
  induction m as [|[k' x] m IH]; intros v H; cbn [mget]; [discriminate|]. inversion H; subst.
  destruct (String.eqb k k'); [intros [= <-]; assumption|auto].
Qed.
Lemma mget_or_null_good : forall k m, mgood m -> vgood (match mget k m with Some v => v | None => VNull end).
Proof. intros k m H. destruct (mget k m) eqn:E; [exact (mget_good _ _ _ H E)|exact Logic.I]. Qed.
Lemma mset_good : forall k v m, mgood m -> vgood v -> mgood (mset k v m).
Proof.
  induction m as [|[k' x] m IH]; intros H Hv; cbn [mset]; [repeat constructor; assumption|]. inversion H; subst.
  destruct (String.eqb k k'); constructor; auto. apply IH; assumption.
Qed.

Lemma alloc_arr_good : forall l h, heap_good h -> lgood l -> heap_good (snd (alloc_arr l h)).
Proof. unfold alloc_arr, heap_good; intros l h [H1 H2] Hl; cbn. split; [constructor; assumption|assumption]. Qed.
Lemma alloc_map_good : forall m h, heap_good h -> mgood m -> heap_good (snd (alloc_map m h)).
Proof. unfold alloc_map, heap_good; intros m h [H1 H2] Hl; cbn. split; [assumption|constructor; assumption]. Qed.
Lemma set_arr_good : forall id l h, heap_good h -> lgood l -> heap_good (set_arr id l h).
Proof. unfold set_arr, heap_good; intros id l h [H1 H2] Hl; cbn. split; [apply aset_Forall; assumption|assumption]. Qed.
Lemma set_map_good : forall id m h, heap_good h -> mgood m -> heap_good (set_map id m h).
Proof. unfold set_map, heap_good; intros id m h [H1 H2] Hl; cbn. split; [assumption|apply aset_Forall; assumption]. Qed.
Lemma cattrs_force_good : forall cid h, heap_good h -> heap_good (snd (cattrs_force cid h)).
Proof.
  unfold cattrs_force; intros cid h H. destruct (aget cid (h_cattrs h)); [exact H|].
  unfold alloc_map, heap_good in *. cbn. destruct H as [H1 H2]. split; [assumption|]. constructor; [constructor|assumption].
Qed.

Lemma lgood_split : forall n l, lgood l -> lgood (firstn n l) /\ lgood (skipn n l).
Proof. intros n l H. apply Forall_app. rewrite firstn_skipn. exact H. Qed.
Lemma lgood_firstn : forall n l, lgood l -> lgood (firstn n l).
Proof. intros n l H. exact (proj1 (lgood_split n l H)). Qed.
Lemma lgood_skipn : forall n l, lgood l -> lgood (skipn n l).
Proof. intros n l H. exact (proj2 (lgood_split n l H)). Qed.
Lemma lgood_slice : forall l a b, lgood l -> lgood (slice l a b).
Proof. intros; unfold slice. apply lgood_firstn, lgood_skipn; assumption. Qed.
Lemma lgood_app : forall l1 l2, lgood l1 -> lgood l2 -> lgood (l1 ++ l2).
Proof. intros; apply Forall_app; split; assumption. Qed.
Lemma lgood_rev : forall l, lgood l -> lgood (rev l).
Proof. intros; apply Forall_rev; assumption. Qed.
Lemma lgood_repeat : forall n l, lgood l -> lgood (repeat_list l n).
Proof. induction n; intros; cbn; [constructor|apply lgood_app; auto]. Qed.
Lemma lgood_nth : forall n l d, lgood l -> vgood d -> vgood (nth n l d).
Proof. induction n; intros l d H Hd; destruct l; cbn; auto; inversion H; subst; auto. Qed.
Lemma lgood_list_set : forall l i x, lgood l -> vgood x -> lgood (list_set l i x).
Proof. induction l; intros i x H Hx; cbn; [constructor|]. inversion H; subst. destruct i; constructor; auto. apply IHl; assumption. Qed.
Lemma lgood_swap : forall l i j, lgood l -> lgood (swap l i j).
Proof. intros; unfold swap. repeat apply lgood_list_set; auto; apply lgood_nth; auto; exact Logic.I. Qed.
Lemma lgood_set_slice : forall l l2 a b, lgood l -> lgood l2 -> lgood (set_slice l l2 a b).
Proof. intros; unfold set_slice. destruct (slice_bounds _ _ _). repeat apply lgood_app; auto using lgood_firstn, lgood_skipn. Qed.
Lemma lgood_removelast : forall l, lgood l -> lgood (removelast l).
Proof. induction l; intros H; [constructor|]. inversion H; subst. cbn [removelast]. destruct l; [constructor|]. constructor; [assumption|apply IHl; assumption]. Qed.
Lemma lgood_last : forall l d, lgood l -> vgood d -> vgood (last l d).
Proof. induction l; intros d H Hd; cbn; auto. inversion H; subst. destruct l; auto. Qed.
Lemma dict_of_good : forall l m m', lgood l -> mgood m -> dict_of l m = Some m' -> mgood m'.
Proof.
  fix IH 1. intros l m m' Hl Hm. destruct l as [|k [|v r]]; cbn [dict_of]; try (intros [= <-]; assumption).
  destruct (as_dict_key k); [|discriminate]. inversion Hl as [|? ? _ Hl1]; subst. inversion Hl1; subst.
  apply IH; [assumption|apply mset_good; assumption].
Qed.
Lemma bind_params_good : forall ps args m, lgood args -> mgood m -> mgood (bind_params ps args m).
Proof.
  induction ps; intros args m Ha Hm; cbn; [assumption|]. destruct args; [assumption|]. inversion Ha; subst.
  apply IHps; [assumption|apply mset_good; assumption].
Qed.

Lemma lgood_znth : forall l i d, lgood l -> vgood d -> vgood (znth l i d).
Proof. intros; unfold znth; apply lgood_nth; assumption. Qed.
Lemma mgood_hd : forall k x m, mgood ((k, x) :: m) -> vgood x.
Proof. intros k x m H. exact (Forall_inv H). Qed.
Lemma lgood_hd : forall x l, lgood (x :: l) -> vgood x.
Proof. intros x l H. exact (Forall_inv H). Qed.
Lemma lgood_tl : forall x l, lgood (x :: l) -> lgood l.
Proof. intros x l H. exact (Forall_inv_tail H). Qed.
Lemma lgood_nil : lgood [].
Proof. constructor. Qed.
Lemma lgood_cons : forall x l, vgood x -> lgood l -> lgood (x :: l).
Proof. intros; constructor; assumption. Qed.
Lemma mgood_nil : mgood [].
Proof. constructor. Qed.

Definition wg (w : world) : Prop := heap_good (w_heap w).
Lemma wg_set_heap : forall w h, heap_good h -> wg (w_set_heap w h).
Proof. intros; exact H. Qed.
Lemma wg_heap : forall w, wg w -> heap_good (w_heap w).
Proof. intros; assumption. Qed.
Lemma wg_set_pcg : forall w s, wg w -> wg (w_set_pcg w s).
Proof. intros; assumption. Qed.
Lemma wg_set_chain : forall w c, wg w -> wg (w_set_chain w c).
Proof. intros; assumption. Qed.
Lemma wg_set_self_ops : forall w x, wg w -> wg (w_set_self_ops w x).
Proof. intros w x H; unfold w_set_self_ops. destruct (w_chain w); assumption. Qed.
Lemma wg_st_log : forall w a b c d e f, wg w -> wg (st_log w a b c d e f).
Proof. intros; assumption. Qed.
Lemma wg_store_name : forall n v w, wg w -> vgood v -> wg (store_name n v w).
Proof.
  intros n v w H Hv; unfold store_name, wg; cbn [w_heap w_set_heap].
  apply set_map_good; [exact H|]. apply mset_good; [apply get_map_good; exact H|exact Hv].
Qed.

Lemma vgood_vint : forall z, vgood (VInt z). Proof. intros; exact Logic.I. Qed.
Lemma vgood_vstr : forall z, vgood (VStr z). Proof. intros; exact Logic.I. Qed.
Lemma vgood_vnull : vgood VNull. Proof. exact Logic.I. Qed.
Lemma vgood_varr : forall z, vgood (VArr z). Proof. intros; exact Logic.I. Qed.
Lemma vgood_vdict : forall z, vgood (VDict z). Proof. intros; exact Logic.I. Qed.
Lemma vgood_vbool : forall b, vgood (vbool b). Proof. intros; exact Logic.I. Qed.

Lemma load_global_good : forall name, vgood (load_global name).
Proof.
  intros name. unfold load_global. destruct (mem_s name builtin_names) eqn:H; [|exact Logic.I].
  unfold vgood. destruct (String.eqb name "Computed.compute") eqn:He; [|reflexivity].
  apply String.eqb_eq in He. subst name. vm_compute in H. discriminate.
Qed.

Lemma attr_fallback_good : forall v name x, (forall c, v <> VComp c) -> attr_fallback v name = Some x -> vgood x.
Proof.
  intros v name x Hv. unfold attr_fallback, proto_method.
  destruct v; try (destruct (mem_s name _)); try (intros [= <-]; exact Logic.I); try discriminate.
  - exfalso; exact (Hv cid eq_refl).
  - intros [= <-]. reflexivity.
  - intros [= <-]. reflexivity.
Qed.

Lemma proto_walk_good : forall h name n cur x, heap_good h -> proto_walk n cur name h = Some x -> vgood x.
Proof.
  intros h name. induction n; intros cur x Hh; cbn [proto_walk]; [discriminate|].
  destruct (mget "__proto__" (get_map cur h)) as [[]|]; try discriminate.
  destruct (mget name (get_map id h)) eqn:Hm; [|apply IHn; exact Hh].
  intros [= <-]. exact (mget_good _ _ _ (get_map_good _ _ Hh) Hm).
Qed.

Lemma native_sig_good : forall name, lgood (snd (native_sig name)).
Proof. intros; unfold native_sig. repeat destruct (_ : bool); cbn; repeat constructor. Qed.

Lemma range_loop_good : forall n i step b idx len acc l, lgood acc -> range_loop n i step b idx len acc = Some l -> lgood l.
Proof.
  induction n; intros i step b idx len acc l Ha; cbn [range_loop]; destruct (len <=? idx); try discriminate;
    pose proof (lgood_cons (VInt i) acc Logic.I Ha) as Hc; destruct (i =? b); try discriminate.
  1, 2: intros [= <-]; exact (lgood_rev _ Hc).
  exact (IHn _ _ _ _ _ _ _ Hc).
Qed.

Lemma wg_charged : forall E w n, wg w -> wg (charged E w n).
Proof. intros; unfold charged. apply wg_set_self_ops; assumption. Qed.

Create HintDb good.
#[export] Hint Resolve wg_charged : good.
#[export] Hint Resolve get_arr_good get_map_good cattrs_get_good mget_or_null_good mset_good alloc_arr_good alloc_map_good
  set_arr_good set_map_good cattrs_force_good lgood_firstn lgood_skipn lgood_slice lgood_app lgood_rev lgood_repeat lgood_nth
  lgood_list_set lgood_swap lgood_set_slice lgood_removelast lgood_last bind_params_good lgood_znth lgood_nil lgood_cons mgood_nil
  wg_set_heap wg_heap wg_set_pcg wg_set_chain wg_set_self_ops wg_st_log wg_store_name vgood_vint vgood_vstr vgood_vnull vgood_varr
  vgood_vdict vgood_vbool load_global_good : good.
#[export] Hint Immediate mgood_hd lgood_hd lgood_tl : good.

Definition frame_good (fr : frame) : Prop :=
  lgood (fr_live fr) /\ lgood (fr_dead fr) /\ match fr_last fr with LVal v => vgood v | _ => True end.
(* the invariant of this part: no bare Computed.compute on the stack (live or stale slots), in lastPop, or in any
   array or map of the heap *)
Definition G (m : machine) : Prop := frame_good (m_fr m) /\ wg (m_w m).

Notation rg P := (rsat (fun a w => P a /\ wg w) (fun s => s <> nilself_msg)).
Definition tt_ok {A} : A -> Prop := fun _ => True.
Definition ovgood (o : option value) : Prop := match o with Some x => vgood x | None => True end.

Lemma new_frame_good : forall c s, frame_good (new_frame c s).
Proof. intros; unfold frame_good, new_frame; cbn. repeat split; constructor. Qed.

Create HintDb rg.

Section Good.
  Variable call : machine -> result.
  Variable rfuel : nat.
  Variable E : env.
  Hypothesis Hcall : forall m, G m -> match call m with Fin m' => G m' | Panic s => s <> nilself_msg | _ => True end.

  (* goes down to the leaves; an operation met on the way is closed by its own lemma (database rg) *)
  Ltac rg_tac :=
    repeat (cbv zeta; lazymatch goal with
      | |- rsat _ _ (if ?b then _ else _) => destruct b
      | |- rsat _ _ (match ?x with _ => _ end) => destruct x
      | |- rsat _ _ (ROk _ _) =>
        split; [cbn beta; try match goal with |- vgood (if ?x then _ else _) => destruct x | |- vgood (match ?x with VNull => _ | _ => _ end) => destruct x end; first [exact Logic.I | eauto 7 with good]
               | eauto 7 with good]
      | |- rsat _ _ (RPanic _) => let X := fresh in intro X; discriminate X
      | |- rsat _ _ (rbind _ _) => eapply rsat_rbind; [solve [eauto 7 with rg good] | cbv beta; intros ? ? [? ?]]
      | |- _ => first [exact Logic.I | solve [eauto 7 with rg good]]
      end).

  (* the sub-VM of a call starts on a fresh frame and a good heap: Hcall speaks of what it leaves *)
  Lemma sub_outcome_g : forall osub put r, (forall sub, osub = Some sub -> G sub) ->
    sub_outcome call osub put r -> rg vgood r.
  Proof.
    intros osub put r Hg H. destruct r as [v w'| |s| |]; try exact Logic.I.
    - destruct H as (sub & m' & s' & t' & rest' & Hs & Hc & _ & -> & ->).
      pose proof (Hcall sub (Hg sub Hs)) as Hp. rewrite Hc in Hp. destruct Hp as [[Hl _] Hw]. split; [|exact Hw].
      destruct (fr_live (m_fr m')); [exact Logic.I|exact (Forall_inv Hl)].
    - destruct H as (sub & Hs & Hc). pose proof (Hcall sub (Hg sub Hs)) as Hp. rewrite Hc in Hp. exact Hp.
  Qed.

  Lemma computed_execute_g : forall cid k w, wg w -> rg vgood (computed_execute call E cid k w).
  Proof.
    intros cid k w Hw. refine (sub_outcome_g _ _ _ _ (computed_execute_inv call E cid k w)). intros sub Hs.
    destruct (ce_sub_Some _ _ _ _ _ Hs) as (d & body & ws & _ & _ & -> & Hh).
    split; [apply new_frame_good|]. unfold wg; cbn [m_w]. rewrite Hh. apply cattrs_force_good, Hw.
  Qed.

  Lemma func_invoke_g : forall fid args w, wg w -> lgood args -> rg vgood (func_invoke call E fid args w).
  Proof.
    intros fid args w Hw Ha. refine (sub_outcome_g _ _ _ _ (func_invoke_inv call E fid args w)). intros sub Hs.
    destruct (fi_sub_Some _ _ _ _ _ Hs) as (d & body & ws & _ & _ & -> & Hh).
    split; [apply new_frame_good|]. unfold wg; cbn [m_w]. rewrite Hh. apply alloc_map_good; auto with good.
  Qed.
  Hint Resolve computed_execute_g func_invoke_g : rg.

  Lemma heap_set_ops_at : forall k ops w, w_heap (set_ops_at k ops w) = w_heap w.
  Proof. intros; unfold set_ops_at. destruct (nth_error _ _); reflexivity. Qed.
  Lemma wg_sync_to : forall k w, wg w -> wg (sync_to k w).
  Proof.
    intros k w H. destruct k; [exact H|]. unfold sync_to. destruct (_ <? _); [|exact H].
    unfold wg. rewrite heap_set_ops_at. exact H.
  Qed.
  Lemma wg_sync_back : forall k w, wg w -> wg (sync_back k w).
  Proof.
    intros k w H. destruct k; [exact H|]. unfold sync_back. cbv zeta. destruct (_ <? _); [|exact H].
    unfold wg. rewrite heap_set_ops_at. exact H.
  Qed.

  Lemma load_walk_g : forall n k name isRaw w, wg w -> rg vgood (load_walk call E n k name isRaw w).
  Proof.
    induction n; intros k name isRaw w Hw; cbn [load_walk]; [split; [apply load_global_good|exact Hw]|].
    destruct (nth_error (w_chain w) k); [|split; [apply load_global_good|exact Hw]]. cbv zeta.
    pose proof (wg_sync_to k w Hw) as Hw0.
    apply rsat_rbind with (K := fun a w => vgood a /\ wg w).
    - apply rsat_rmapw with (K := fun a w => vgood a /\ wg w); [intros a w' [Ha Hw']; exact (conj Ha (wg_sync_back k w' Hw'))|].
      pose proof (mget_or_null_good name _ (get_map_good (c_attrs c) _ Hw)) as Hv.
      destruct (match mget name _ with Some v => v | None => VNull end); try (split; [exact Hv|exact Hw0]).
      destruct isRaw; [split; [exact Hv|exact Hw0]|apply computed_execute_g; exact Hw0].
    - intros v w' [Hv Hw']. destruct v; try (split; [exact Hv|exact Hw']). apply IHn; exact Hw'.
  Qed.
  Lemma load_name_g : forall name isRaw w, wg w -> rg vgood (load_name call E name isRaw w).
  Proof. intros; apply load_walk_g; assumption. Qed.
  Lemma load_local_g : forall name w, wg w -> rg vgood (load_local call E name w).
  Proof.
    intros name w Hw. unfold load_local.
    pose proof (mget_or_null_good name _ (get_map_good (c_attrs (w_self w)) _ Hw)) as Hv.
    destruct (match mget name _ with Some v => v | None => VNull end); try (split; [exact Hv|exact Hw]).
    apply computed_execute_g; exact Hw.
  Qed.

  Lemma new_arr_g : forall l w, wg w -> lgood l -> rg vgood (new_arr l w).
  Proof.
    intros l w Hw Hl; unfold new_arr. pose proof (alloc_arr_good l _ Hw Hl) as Hh.
    destruct (alloc_arr _ _). split; [exact Logic.I|exact Hh].
  Qed.
  Lemma str_of_g : forall E' b v w, wg w -> rg tt_ok (str_of E' b v w).
  Proof. intros E' b v w Hw; unfold str_of. rg_tac. Qed.
  Lemma roll1_g : forall n w, wg w -> rg tt_ok (roll1 n w).
  Proof. intros n w Hw; unfold roll1. rg_tac. Qed.
  Lemma shuffle_g : forall l w, wg w -> lgood l -> rg lgood (shuffle l w).
  Proof.
    intros l w; unfold shuffle. generalize (pred (length l)) as i. intros i; revert l w.
    induction i; intros l w Hw Hl; cbn [shuffle_loop]; [split; assumption|].
    eapply rsat_rbind; [apply roll1_g; exact Hw|]. intros r w' [_ Hw']. apply IHi; [exact Hw'|apply lgood_swap; exact Hl].
  Qed.
  Hint Resolve load_name_g load_local_g new_arr_g str_of_g roll1_g shuffle_g : rg.

  Lemma array_repeat_g : forall id t w, wg w -> rg vgood (array_repeat id t w).
  Proof.
    intros id t w Hw; unfold array_repeat. destruct t; try exact Logic.I. cbv zeta.
    destruct (z <? 0); [exact Logic.I|]. destruct (_ || _); [exact Logic.I|].
    apply new_arr_g; [exact Hw|]. destruct (get_arr id (w_heap w)) eqn:He; [constructor|]. rewrite <- He. auto with good.
  Qed.
  Hint Resolve array_repeat_g : rg.

  Lemma attr_get_g : forall v name w, wg w -> rg ovgood (attr_get call E v name w).
  Proof.
    intros v name w Hw. unfold attr_get.
    assert (Hfb : forall v0, (forall c, v0 <> VComp c) -> rg ovgood (ROk (attr_fallback v0 name) w)).
    { intros v0 Hv0. split; [|exact Hw]. destruct (attr_fallback v0 name) eqn:Hf; [|exact Logic.I].
      exact (attr_fallback_good _ _ _ Hv0 Hf). }
    destruct v; try (apply Hfb; intros; discriminate).
    - split; [|exact Hw]. apply (mget_or_null_good name). apply cattrs_get_good; exact Hw.
    - destruct (mget name (get_map id (w_heap w))) eqn:Hm.
      + split; [|exact Hw]. exact (mget_good _ _ _ (get_map_good _ _ Hw) Hm).
      + destruct (proto_walk 64 id name (w_heap w)) eqn:Hp; [|apply Hfb; intros; discriminate].
        split; [exact (proto_walk_good _ _ _ _ _ Hw Hp)|exact Hw].
    - eapply rsat_rbind; [apply load_local_g; exact Hw|]. intros x w' H. exact H.
  Qed.

  Lemma attr_set_g : forall v name x w, wg w -> vgood x -> rg tt_ok (attr_set v name x w).
  Proof.
    intros v name x w Hw Hx; unfold attr_set. destruct v; try exact Logic.I.
    - pose proof (cattrs_force_good cid _ Hw) as Hh. destruct (cattrs_force cid (w_heap w)) as [id h1]. cbn [snd] in Hh.
      split; [exact Logic.I|]. auto 6 with good.
    - split; [exact Logic.I|]. auto 6 with good.
  Qed.
  Lemma item_get_g : forall a b w, wg w -> rg vgood (item_get a b w).
  Proof. intros a b w Hw; unfold item_get. rg_tac. Qed.
  Lemma item_set_g : forall a b x w, wg w -> vgood x -> rg tt_ok (item_set a b x w).
  Proof. intros a b x w Hw Hx; unfold item_set. rg_tac. Qed.
  Lemma slice_get_g : forall o a b w, wg w -> rg vgood (slice_get o a b w).
  Proof. intros o a b w Hw; unfold slice_get. rg_tac. Qed.
  Lemma slice_set_g : forall o a b x w, wg w -> rg tt_ok (slice_set o a b x w).
  Proof. intros o a b x w Hw; unfold slice_set. rg_tac. Qed.
  Lemma bin_op_g : forall op v1 v2 w, wg w -> vgood v1 -> vgood v2 -> rg vgood (bin_op rfuel E op v1 v2 w).
  Proof. intros op v1 v2 w Hw H1 H2. unfold bin_op. rg_tac. Qed.

  Lemma push_range_g : forall a b w, wg w -> rg vgood (push_range a b w).
  Proof.
    intros a b w Hw; unfold push_range. destruct a; try exact Logic.I; destruct b; try exact Logic.I.
    destruct (if z <=? z0 then _ else _) as [step len]. destruct (_ || _); [exact Logic.I|]. cbv zeta.
    destruct (512 <? _); [exact Logic.I|].
    destruct (range_loop _ _ _ _ _ _ _) eqn:Hr; [|intro X; discriminate X].
    apply new_arr_g; [exact Hw|]. exact (range_loop_good _ _ _ _ _ _ _ _ lgood_nil Hr).
  Qed.

  (* the one native that can panic with "nil Self" is the bound method the invariant excludes *)
  Lemma native_call_g : forall name self args w, wg w -> lgood args -> vgood (VNative name self) ->
    rg vgood (native_call call E name self args w).
  Proof.
    intros name self args w Hw Ha Hn. unfold native_call.
    pose proof (native_sig_good name) as Hd. destruct (native_sig name) as [np defaults]. cbn [snd] in Hd. cbv zeta.
    set (args' := (args ++ skipn (length args) defaults)%list).
    assert (Ha' : lgood args') by (apply lgood_app; [exact Ha|apply lgood_skipn; exact Hd]). clearbody args'.
    cbn [vgood] in Hn. rewrite Hn.
    set (l := get_arr _ (w_heap w)). assert (Hl : lgood l) by (apply get_arr_good; exact Hw). clearbody l.
    set (mp := get_map _ (w_heap w)). assert (Hmp : mgood mp) by (apply get_map_good; exact Hw). clearbody mp.
    rg_tac.
  Qed.
  Hint Resolve attr_get_g attr_set_g item_get_g item_set_g slice_get_g slice_set_g bin_op_g push_range_g native_call_g : rg.

  Lemma last_detail_good : forall fr, frame_good fr -> frame_good (last_detail fr).
  Proof. intros fr H; unfold last_detail. destruct (fr_details fr); exact H. Qed.

  Lemma pop_good : forall fr v fr1, frame_good fr -> pop fr = (v, fr1) -> vgood v /\ frame_good fr1.
  Proof.
    unfold pop; intros fr v fr1 H. destruct (fr_live fr) eqn:Hl.
    - intros [= <- <-]. split; [exact Logic.I|].
      unfold frame_good in *. cbn [fr_set_stack fr_live fr_dead fr_last]. split; [apply lgood_nil|split; [apply H|exact Logic.I]].
    - intros [= <- <-]. unfold frame_good in *. rewrite Hl in H. destruct H as (H1 & H2 & H3). inversion H1; subst.
      cbn [fr_set_stack fr_live fr_dead fr_last]. repeat split; auto. constructor; assumption.
  Qed.
  Lemma pop_n_good : forall n fr l fr1, frame_good fr -> pop_n n fr = (l, fr1) -> lgood l /\ frame_good fr1.
  Proof.
    apply (pop_n_keeps frame_good vgood pop_good). intros fr l (A & B & C) Hl.
    unfold frame_good; cbn [fr_set_stack fr_live fr_dead fr_last]. repeat split; auto.
    destruct l; [exact C|exact (Forall_inv Hl)].
  Qed.
  Lemma push_good : forall v fr fr1, vgood v -> frame_good fr -> push v fr = Some fr1 -> frame_good fr1.
  Proof.
    unfold push; intros v fr fr1 Hv H. destruct (_ <=? _); [discriminate|]. intros [= <-].
    unfold frame_good in *. cbn [fr_set_stack fr_live fr_dead fr_last]. destruct H as (A & B & C). repeat split; auto.
    - constructor; assumption.
    - destruct (fr_dead fr); [constructor|inversion B; assumption].
  Qed.
  Lemma lower_top_good : forall n live dead l d, lgood live -> lgood dead -> lower_top n live dead = (l, d) -> lgood l /\ lgood d.
  Proof.
    induction n; intros live dead l d H1 H2; cbn [lower_top]; [intros [= <- <-]; auto|].
    destruct live; [intros [= <- <-]; auto|]. inversion H1; subst. apply IHn; [assumption|constructor; assumption].
  Qed.
  Lemma raise_top_good : forall n live dead l d, lgood live -> lgood dead -> raise_top n live dead = Some (l, d) -> lgood l /\ lgood d.
  Proof.
    induction n; intros live dead l d H1 H2; cbn [raise_top]; [intros [= <- <-]; auto|].
    destruct dead; [discriminate|]. inversion H2; subst. apply IHn; [constructor; assumption|assumption].
  Qed.
  Lemma set_top_good : forall fr t fr1, frame_good fr -> set_top fr t = Some fr1 -> frame_good fr1.
  Proof.
    unfold set_top; intros fr t fr1 (A & B & C). destruct (t <=? fr_top fr).
    - destruct (lower_top _ _ _) as [l d] eqn:Hl. destruct (lower_top_good _ _ _ _ _ A B Hl). intros [= <-].
      unfold frame_good; cbn [fr_set_stack fr_live fr_dead fr_last]. auto.
    - destruct (raise_top _ _ _) as [[l d]|] eqn:Hl; [|discriminate]. destruct (raise_top_good _ _ _ _ _ A B Hl). intros [= <-].
      unfold frame_good; cbn [fr_set_stack fr_live fr_dead fr_last]. auto.
  Qed.
  Lemma read_slot_good : forall fr i v, frame_good fr -> read_slot fr i = Some v -> vgood v.
  Proof.
    unfold read_slot; intros fr i v (A & B & C). destruct (i <? 0); [discriminate|].
    destruct (i <? fr_top fr); apply Forall_nth_error; assumption.
  Qed.
  Lemma last_good : forall fr v, frame_good fr -> fr_last fr = LVal v -> vgood v.
  Proof. intros fr v (A & B & C) H. rewrite H in C. exact C. Qed.
  Lemma live_hd_good : forall fr v l, frame_good fr -> fr_live fr = v :: l -> vgood v.
  Proof. intros fr v l (A & B & C) H. rewrite H in A. inversion A; assumption. Qed.

  Notation Q3 := (ssat G G (fun s => s <> nilself_msg)).
  Definition step_good (op : opcode) : Prop := forall o m, G m -> Q3 (step call rfuel E (I op o) m).

  Lemma Q3_do_push : forall v fr w, vgood v -> frame_good fr -> wg w -> Q3 (do_push v fr w).
  Proof.
    intros v fr w Hv Hf Hw. unfold do_push. destruct (push v fr) as [fr1|] eqn:Hp; [|intro X; discriminate X].
    split; [exact (push_good _ _ _ Hv Hf Hp)|exact Hw].
  Qed.

  (* the branch of `step` that the fifteen binary operators share *)
  Lemma Q3_bin_op : forall op v1 v2 fr w, vgood v1 -> vgood v2 -> frame_good fr -> wg w ->
    Q3 (match bin_op rfuel E op v1 v2 w, fr_err fr with
        | RFail EType w1, Some e => SFail e (mk fr w1)
        | r, _ => lift r fr (fun v w1 => do_push v fr w1)
        end).
  Proof.
    intros op v1 v2 fr w H1 H2 Hf Hw. pose proof (bin_op_g op v1 v2 w Hw H1 H2) as Hr.
    assert (HQ : Q3 (lift (bin_op rfuel E op v1 v2 w) fr (fun v w1 => do_push v fr w1))).
    { eapply ssat_lift; [exact Hr|]. intros v w1 [Hv Hw1]. apply Q3_do_push; assumption. }
    destruct (bin_op rfuel E op v1 v2 w) as [v w1|e w1| | |]; try exact HQ. destruct e; try exact HQ.
    destruct (fr_err fr); exact Logic.I.
  Qed.

  (* the three kinds of side condition: frame, value, world *)
  Ltac fg_tac :=
    first [ assumption
          | apply last_detail_good; assumption
          | unfold frame_good in *; fr_unfold; repeat match goal with H : _ /\ _ |- _ => destruct H end; repeat split; assumption ].
  Ltac vg_tac :=
    try match goal with |- vgood (if ?b then _ else _) => destruct b end;
    first [ assumption | exact Logic.I | eauto 5 with good ].
  Ltac wg_tac :=
    try match goal with |- wg (if ?b then _ else _) => destruct b end;
    first [ assumption | eauto 7 with good ].

  (* what a destructed scrutinee says of the frame *)
  Ltac q3_fact :=
    repeat match goal with
    | Hm : frame_good ?fr, Hp : pop ?fr = (_, _) |- _ =>
      let H1 := fresh "Hv" in let H2 := fresh "Hf" in destruct (pop_good _ _ _ Hm Hp) as [H1 H2]; clear Hp
    | Hm : frame_good ?fr, Hp : pop_n _ ?fr = (_, _) |- _ =>
      let H1 := fresh "Hl" in let H2 := fresh "Hf" in destruct (pop_n_good _ _ _ _ Hm Hp) as [H1 H2]; clear Hp
    | Hm : frame_good ?fr, Hp : push (VInt _) ?fr = Some _ |- _ => pose proof (push_good _ _ _ (vgood_vint _) Hm Hp); clear Hp
    | Hl : lgood ?l, Hp : dict_of ?l [] = Some _ |- _ => pose proof (dict_of_good _ _ _ Hl mgood_nil Hp); clear Hp
    | Hm : frame_good ?fr, Hp : set_top ?fr _ = Some _ |- _ => pose proof (set_top_good _ _ _ Hm Hp); clear Hp
    | Hm : frame_good ?fr, Hp : read_slot ?fr _ = Some _ |- _ => pose proof (read_slot_good _ _ _ Hm Hp); clear Hp
    | Hm : frame_good ?fr, Hp : fr_last ?fr = LVal _ |- _ => pose proof (last_good _ _ Hm Hp); clear Hp
    | Hm : frame_good ?fr, Hp : fr_live ?fr = _ :: _ |- _ => pose proof (live_hd_good _ _ _ Hm Hp); clear Hp
    end.

  Ltac q3_r := first [ eassumption | solve [eauto with rg nocore] ].   (* the operation under a lift *)

  (* the walk: the head of the goal says which lemma applies *)
  Ltac q3_go :=
    repeat (cbv beta iota zeta; lazymatch goal with
      | |- Q3 (do_push _ _ _) => apply Q3_do_push; [vg_tac | fg_tac | wg_tac]
      | |- Q3 (SNext (mk _ _)) => split; cbn [mk m_fr m_w]; [fg_tac | wg_tac]
      | |- Q3 (lift _ _ _) => eapply ssat_lift; [q3_r | cbv beta; cbn [ovgood tt_ok]; intros ? ? [? ?]]
      | |- Q3 (match alloc_arr ?l ?h with _ => _ end) =>
        let H := fresh "Hh" in
        assert (H : heap_good (snd (alloc_arr l h))) by (apply alloc_arr_good; [assumption | eauto 5 with good]);
        revert H; destruct (alloc_arr l h); intro H; cbn [snd] in H
      | |- Q3 (match alloc_map ?l ?h with _ => _ end) =>
        let H := fresh "Hh" in
        assert (H : heap_good (snd (alloc_map l h))) by (apply alloc_map_good; [assumption | eauto 5 with good]);
        revert H; destruct (alloc_map l h); intro H; cbn [snd] in H
      | |- Q3 (match (match ops_add ?c ?o ?n with _ => _ end) with _ => _ end) => destruct (ops_add c o n)
      | |- Q3 (if ?b then _ else _) => destruct b eqn:?
      | |- Q3 (match bin_op _ _ _ _ _ _ with _ => _ end) => apply Q3_bin_op; assumption
      | |- Q3 (match ?x with _ => _ end) =>
        (* an operation whose result is inspected: its lemma first *)
        first [ let Hr := fresh "Hr" in
                eassert (Hr : rsat _ (fun s => s <> nilself_msg) x) by (solve [eauto with rg nocore]); destruct x
              | destruct x eqn:?; cbn [ovgood] in *; q3_fact ]
      | |- Q3 (SPanic _) => let X := fresh in intro X; discriminate X
      | |- _ => first [exact Logic.I | split; assumption]
      end).

  Ltac q3_start :=
    intros o m [Hf Hw]; lazy beta iota zeta delta [step i_op i_arg];
    unfold with_pop2, with_pop, with_pop_n, with_int, need_dice, arg_int, arg_str, upd_dice, add_ops, dice_result.

  Lemma step_good_OpLdFs : step_good OpLdFs.
  Proof.
    q3_start. destruct o; try (intro X; discriminate X).
    destruct ((0 <? z) && (fr_top (m_fr m) - z <? 0)); [exact Logic.I|].
    match goal with |- ssat _ _ _ (?f ?l0 ?a0) => cut (forall l acc, Q3 (f l acc)); [intros Hx; apply Hx|] end.
    induction l as [|v l IH]; intros acc; cbv beta iota.
    - destruct (stack_size <=? fr_top (m_fr m) - z); [intro X; discriminate X|].
      destruct (set_top (m_fr m) (fr_top (m_fr m) - z)) as [fr1|] eqn:Hs; [|exact Logic.I].
      apply Q3_do_push; [exact Logic.I|exact (set_top_good _ _ _ Hf Hs)|exact Hw].
    - destruct (to_string _ _ v); [apply IH|exact Logic.I].
  Qed.

  (* For every opcode, as in C01_step_no_panic_partial: q3_start puts the opcode's branch in place of `step`; q3_go
     follows it: what a pop, pop_n, set_top, read_slot, lastPop or the stack top yields is good because the frame is
     (q3_fact), an operation under `lift` has its rg lemma and hands on a good value and world, a push wants a good
     value (Q3_do_push), an allocation keeps the heap good, the binary operators share Q3_bin_op.  Only ld.fs (a loop)
     has a lemma of its own. *)
  Theorem step_good_all : forall op, step_good op.
  Proof.
    destruct op;
      lazymatch goal with
      | |- step_good OpLdFs => exact step_good_OpLdFs
      | |- _ => q3_start; q3_go
      end.
  Qed.
End Good.

Theorem exec_good : forall E fuel m, G m ->
  match exec fuel E m with Fin m' => G m' | Panic s => s <> nilself_msg | _ => True end.
Proof.
  intros E. induction fuel as [|f IH]; intros m Hm; [exact Logic.I|]. cbn [exec].
  destruct (zlen (fr_code (m_fr m)) <=? fr_pc (m_fr m)); [destruct (fr_err (m_fr m)); [exact Logic.I|exact Hm]|].
  destruct (count_op E m) as [m1 over] eqn:Hc. destruct (count_op_inv _ _ _ _ Hc) as [Hfr [ops Hw1]].
  assert (Hm1 : G m1).
  { destruct Hm as [H1 H2]. split; [rewrite Hfr; exact H1|rewrite Hw1; apply wg_set_self_ops; exact H2]. }
  destruct over; [exact Logic.I|].
  destruct (fr_err (m_fr m)); [exact Logic.I|]. destruct (fr_top (m_fr m) =? stack_size); [exact Logic.I|].
  destruct (fr_pc (m_fr m) <? 0); [intro X; discriminate X|].
  destruct (nth_error _ _) as [[op o]|]; [|intro X; discriminate X].
  pose proof (step_good_all (exec f E) f E IH op o m1 Hm1) as HQ.
  destruct (step (exec f E) f E {| i_op := op; i_arg := o |} m1) as [m2|m2|e m2|s| |s]; try exact HQ.
  apply IH. exact HQ.
Qed.

(* C01, the form that holds: from a state free of bare Computed.compute methods, well-formed code never
   reaches a panic site, except the model-only push.range site (operands outside int64) *)
Theorem C01_exec_no_panic_partial : forall E, ftab_wf (e_ftab E) = true ->
  forall fuel m, machine_ok m -> G m -> match exec fuel E m with Panic s => s = range_msg | _ => True end.
Proof.
  intros E Hft fuel m Hm Hg. pose proof (C01_exec_no_panic_anystate E Hft fuel m Hm) as H1.
  pose proof (exec_good E fuel m Hg) as H2. destruct (exec fuel E m); try exact Logic.I.
  destruct H1 as [H1|H1]; [exact H1|contradiction].
Qed.

Definition state_good (st : vmstate) : Prop := heap_good (vs_heap st).

Theorem C01_run_no_panic_partial : forall E c src,
  code_wf c = true -> ftab_wf (e_ftab E) = true ->
  forall fuel st, state_good st -> match run fuel E c src st with OPanic s => s = range_msg | _ => True end.
Proof.
  intros E c src W1 Hft fuel st Hst. unfold run.
  match goal with |- context [exec fuel E ?m] =>
    pose proof (C01_exec_no_panic_partial E Hft fuel m (new_frame_machine_ok _ _ _ W1)) as H;
    destruct (exec fuel E m) end; try exact Logic.I.
  apply H. split; [apply new_frame_good|exact Hst].
Qed.

(* the invariant is kept across runs on one VM: the state after a run that returned a value is good again *)
Theorem C01_run_keeps_state_good : forall E c src fuel st v st',
  state_good st -> run fuel E c src st = Val v st' -> state_good st' /\ vgood v.
Proof.
  intros E c src fuel st v st' Hst. unfold run.
  match goal with |- context [exec fuel E ?m] =>
    pose proof (exec_good E fuel m) as H; destruct (exec fuel E m) as [m'| | | |] end; try discriminate.
  intros [= <- <-]. destruct H as [Hf Hw]; [split; [apply new_frame_good|exact Hst]|].
  split; [exact Hw|]. destruct Hf as [Hl _]. destruct (fr_live (m_fr m')); [exact Logic.I|inversion Hl; assumption].
Qed.

Example init_state_good : state_good st0.
Proof. unfold state_good, st0, init_vmstate, heap_good. cbn. split; repeat constructor. Qed.

Print Assumptions C01_exec_no_panic_partial.
Print Assumptions C01_run_no_panic_partial.
Print Assumptions C01_run_keeps_state_good.

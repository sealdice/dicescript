(* Every program of the fragment is accepted by the INFERENCE of Model/Verify.v:
     verify (to_shape (compile p)) = true      for every p : stmt.
   Proofs/CompileVerified.v gives the inductive annotation and where control goes (`jcl`);
   Proofs/InferComplete.v reduces acceptance by `verify` to the structure of the backward jumps.
   Here those are put together: the backward jumps of compiled code are the
   closing jump of each `while` and the jumps of `continue` (at top level: to the first
   instruction); the region of a loop is its condition, its body and its closing jump; nothing outside
   a loop jumps into it; and a loop has an inductive annotation whatever the state at its head. *)
From Coq Require Import NArith ZArith List Bool String Lia.
From DS Require Import Model.Str Model.Value Model.VM Model.Ast Model.Compile.
From DS Require Import Model.Bytecode Model.Verify Proofs.VerifyProofs Proofs.CompileFacts Proofs.CompileVerified Proofs.InferComplete.
Import ListNotations.
Open Scope nat_scope.
Local Notation length := List.length.

Lemma plain_st E : plain E -> E = st (a_lo E) (a_blocks E) (a_dice E) (a_det E) (a_last E).
Proof. destruct E as [lo B fb fd d dt ls]. unfold plain, st. cbn. intros [-> ->]. reflexivity. Qed.

(* the annotation of the loop `while c { b }` compiled at p, for an arbitrary state E at its head
   (the first instruction of the condition, p + 1): condition, jne, body, closing jump, and the exit *)
Definition loopW (c : expr) (b : stmt) (p : nat) (E : astate) : annotation :=
  repeat None (S p)
  ++ loop_ann (a_det E) (a_last E) c b (a_lo E) (a_blocks E) (a_dice E)
  ++ [Some (st (a_lo E) (a_blocks E) (a_dice E) (a_det E) (a_last E))].

Fixpoint sregs (dd : nat) (s : stmt) (p : nat) : list region :=
  match s with
  | SSeq a b => sregs dd a p ++ sregs dd b (p + sl dd a)
  | SIf c t e =>
    sregs (S dd) t (S (S (p + length (compile_expr c))))
    ++ sregs (S dd) e (S (S (S (p + length (compile_expr c))) + sl (S dd) t))
  | SWhile c b =>
    {| r_t := S p; r_e := S (S p + length (compile_expr c)) + sl 0 b; r_W := loopW c b p |}
    :: sregs 0 b (S (S p + length (compile_expr c)))
  | _ => []
  end.

Lemma sregs_loops s : forall dd p, map (fun r => (r_t r, r_e r)) (sregs dd s p) = sloops dd s p.
Proof.
  induction s; intros dd p; cbn [sregs sloops map]; rewrite ?map_app, ?IHs1, ?IHs2, ?IHs; reflexivity.
Qed.

Lemma loop_fam c b C p dd bo ao :
  at_seg C p (to_shape (compile_stmt dd bo ao (SWhile c b))) -> p + sl dd (SWhile c b) <= length C ->
  fam C {| r_t := S p; r_e := S (S p + length (compile_expr c)) + sl 0 b; r_W := loopW c b p |}.
Proof.
  intros HC Hlen E PE. cbn [r_t r_e r_W sl] in *. unfold loopW.
  rewrite while_code in HC. destruct HC as [_ HC]. apply at_code_app in HC as [HC _].
  match goal with |- context [repeat None (S p) ++ ?seg] => pose proof (at_seg_mid (repeat None (S p)) seg []) as HA end.
  rewrite app_nil_r, repeat_length in HA. apply at_seg_app in HA as [HA [HX _]]. rewrite loop_ann_len in HX.
  split.
  - destruct (loop_ann_hd (a_det E) (a_last E) c b (a_lo E) (a_blocks E) (a_dice E)) as [t Et]. rewrite Et in *.
    rewrite (proj1 HA). do 2 f_equal. symmetry. exact (plain_st E PE).
  - intros q Hq.
    (* only the check is wanted of loop_ok here: where its jcl points (PL, PX) does not matter *)
    eapply on_seg_check with (p := S p);
      [eapply (loop_ok _ _ c b (stmt_ok _ _ b)) with (PL := 0) (PX := 0) (e := S (S p + length (compile_expr c)) + sl 0 b);
       [repeat split; [exact HC|exact HA]|rewrite loop_code_len; lia|exact (admits_here HX)|rewrite loop_code_len; lia|apply Nat.le_refl]|].
    rewrite loop_code_len. lia.
Qed.

Lemma sregs_fam : forall s C p dd bo ao,
  at_seg C p (to_shape (compile_stmt dd bo ao s)) -> p + sl dd s <= length C ->
  forall r, In r (sregs dd s p) -> fam C r.
Proof.
  induction s; intros C p dd bo ao HC Hlen r Hr; cbn [sregs] in Hr; try (destruct Hr; fail); cbn [sl] in Hlen.
  -
    cbn [compile_stmt] in HC. apply at_code_app in HC as [H1 H2]. rewrite compile_stmt_len in H2.
    apply in_app_or in Hr as [Hr|Hr]; [eapply IHs1|eapply IHs2]; eauto; lia.
  -
    cbn [compile_stmt app] in HC. apply at_code_app in HC as [_ H]. destruct H as [_ H]. destruct H as [_ H].
    apply at_code_app in H as [H2 H]. destruct H as [_ H]. apply at_code_app in H as [H3 _].
    rewrite compile_stmt_len in *.
    apply in_app_or in Hr as [Hr|Hr]; [eapply IHs1|eapply IHs2]; eauto; lia.
  -
    destruct Hr as [<-|Hr]; [eapply loop_fam; eauto|].
    rewrite while_code in HC. destruct HC as [_ H]. apply at_code_app in H as [H _].
    unfold loop_code in H. apply at_code_app in H as [_ H]. cbn [app] in H. destruct H as [_ H].
    apply at_code_app in H as [H _]. eapply IHs; eauto. lia.
Qed.

(* the whole program, entered in an arbitrary state: the region of a top-level `continue` *)
Definition topW (p : stmt) (E : astate) : annotation :=
  ann_stmt (a_det E) (a_last E) p (a_lo E) [] (a_blocks E) (a_dice E)
  ++ [Some (st (a_lo E) (a_blocks E) (a_dice E) (a_det E) (a_last E))].

Definition regions (p : stmt) : list region :=
  {| r_t := 0; r_e := sl 0 p; r_W := topW p |} :: sregs 0 p 0.

Theorem compile_verified : forall p : stmt, verify (to_shape (compile p)) = true.
Proof.
  intro p. destruct (whole_ok false false p 0 [] 0) as (_ & J & Hh).
  assert (LC : length (to_shape (compile p)) = sl 0 p + 1).
  { unfold compile. rewrite to_shape_len, app_length, compile_stmt_len. reflexivity. }
  assert (HR : forall r, In r (sregs 0 p 0) -> In (r_t r, r_e r) (sloops 0 p 0)).
  { intros r Hr. rewrite <- sregs_loops. exact (in_map (fun r => (r_t r, r_e r)) _ _ Hr). }
  apply (verify_accepts _ (annot p) (regions p)).
  - apply compile_check.
  -
    intros i Hin. apply In_nth_error in Hin as [q Hq].
    assert (Hk : q < sl 0 p + 1) by (rewrite <- LC; apply nth_error_Some; congruence).
    destruct (Nat.eq_dec q (sl 0 p)) as [->|Hne]; [exact (proj1 (proj2 Hh _ Hq))|exact (proj1 (proj2 (J q ltac:(lia)) _ Hq))].
  - (* backward jumps: to the first instruction, or to the head of a loop around the jump *)
    intros k i u Hi Hu Hle.
    assert (Hk : k < sl 0 p + 1) by (rewrite <- LC; apply nth_error_Some; congruence).
    destruct (Nat.eq_dec k (sl 0 p)) as [->|Hne]; [destruct (proj2 (proj2 Hh _ Hi) _ Hu)|].
    destruct (proj2 (proj2 (J k ltac:(lia)) _ Hi) _ Hu) as [[Hj _]|[[Hj _]|[->|(t & e & Hin & -> & Hr)]]]; try lia.
    + exists {| r_t := 0; r_e := sl 0 p; r_W := topW p |}. split; [left; reflexivity|]. cbn [r_t r_e]. lia.
    + rewrite <- sregs_loops in Hin. apply in_map_iff in Hin as [r [E Hr']]. injection E as <- <-.
      exists r. split; [right; exact Hr'|lia].
  -
    intros r q i u [<-|Hr] Hq Hi Hu; cbn [r_t r_e] in *; [lia|].
    pose proof (HR r Hr) as Hin. pose proof (sloops_pos _ _ _ _ _ Hin) as Hpos.
    destruct (proj2 (proj2 (J q ltac:(lia)) _ Hi) _ Hu) as [[Hj Hn]|[[Hj ->]|[->|(t & e & _ & -> & Hr')]]];
      [exact (Hn _ _ Hin Hq)|lia..].
  -
    intros r [<-|Hr] E PE; cbn [r_t r_e r_W].
    + destruct (whole_ok (a_det E) (a_last E) p (a_lo E) (a_blocks E) (a_dice E)) as (H0 & H & Hh'). split.
      * unfold topW. rewrite H0. do 2 f_equal. symmetry. exact (plain_st E PE).
      * intros q Hq. destruct (Nat.eq_dec q (sl 0 p)) as [->|]; [apply Hh'|apply (on_seg_check _ _ _ _ _ H); lia].
    + refine (sregs_fam p (to_shape (compile p)) 0 0 0%Z 0%Z _ _ r Hr E PE); [|lia].
      unfold compile. rewrite to_shape_app. exact (at_seg_mid [] _ _).
Qed.

Corollary compile_verify_all : forall p : stmt, verify_all (to_shape (compile p)) = true.
Proof.
  intro p. unfold verify_all. rewrite compile_verified. apply all_ok_iff.
  intros i Hi. unfold to_shape in Hi. apply in_map_iff in Hi. destruct Hi as [j [<- _]]. reflexivity.
Qed.

Print Assumptions compile_verified.
Print Assumptions compile_verify_all.

(* the statement of C08 for compiled code, through `verify_all` (Proofs/VerifyProofs.v): the program
   and every body it defines (none, in this fragment) never gets stuck, and every instruction is
   reached with one fixed number of open blocks *)
Corollary compile_verified_safe :
  forall (p : stmt) b, subprogram (to_shape (compile p)) b ->
  (forall st, reachable b st -> forall r, sstep b st <> Stuck r) /\
  (forall s1 s2, reachable b s1 -> reachable b s2 -> pc s1 = pc s2 ->
     length (blocks s1) = length (blocks s2) /\ length (fblocks s1) = length (fblocks s2)).
Proof. intros p. exact (verify_all_safe _ (compile_verify_all p)). Qed.

Print Assumptions compile_verified_safe.

(* C13 — proofs about Model/StrLit.v.
   Literals: an ASCII byte is always at a rune boundary, so the byte-level printer and scanner
   agree with the rune-level text; scan_escape reads back what escape_from wrote, one byte or
   escape at a time (the flag `forced` remembers a raw backslash).  Templates: a calculus of
   `framed` code (code that neither reads nor changes the stack below its start, up to overflow),
   one lemma per instruction form, composed over the parts of a template. *)
From Coq Require Import NArith ZArith List Bool Lia.
From DS Require Import Model.Str Model.StrLit.
Import ListNotations.
Open Scope N_scope.

Lemma in_rng_ascii : forall lo hi b, 128 <= lo -> b < 128 -> in_rng lo hi b = false.
Proof. intros lo hi b Hlo Hb. unfold in_rng. destruct (N.leb_spec lo b); [lia|reflexivity]. Qed.

Lemma ustep_ascii : forall st b, b < 128 ->
  ustep st b = match st with U0 => Some U0 | _ => None end.
Proof.
  intros st b Hb. destruct st; unfold ustep; try (rewrite in_rng_ascii by lia; reflexivity).
  destruct (N.ltb_spec b 128); [reflexivity|lia].
Qed.

Lemma ascii_only_at_boundary : forall st b st', b < 128 ->
  ustep st b = Some st' -> st = U0 /\ st' = U0.
Proof.
  intros st b st' Hb H. rewrite (ustep_ascii st b Hb) in H.
  destruct st; inversion H; auto.
Qed.

Lemma inside_rune_high : forall st b st', st <> U0 -> ustep st b = Some st' -> 128 <= b.
Proof.
  intros st b st' Hst H. destruct (N.ltb_spec b 128) as [Hlt|]; [|assumption].
  destruct (ascii_only_at_boundary st b st' Hlt H). contradiction.
Qed.

Lemma lead_byte_high : forall b st', ustep U0 b = Some st' -> st' <> U0 -> 128 <= b.
Proof.
  intros b st' H Hne. destruct (N.ltb_spec b 128) as [Hlt|]; [|assumption].
  rewrite (ustep_ascii U0 b Hlt) in H. inversion H. congruence.
Qed.

Lemma urun_app : forall a b st,
  urun st (a ++ b) = match urun st a with Some st' => urun st' b | None => None end.
Proof.
  induction a as [|x a IH]; intros b st; simpl; [reflexivity|].
  destruct (ustep st x); [apply IH|reflexivity].
Qed.

Lemma urun_ascii_cons : forall st b r, b < 128 ->
  urun st (b :: r) = match st with U0 => urun U0 r | _ => None end.
Proof.
  intros st b r Hb. simpl. rewrite (ustep_ascii st b Hb). destruct st; reflexivity.
Qed.

Lemma ustep_byte : forall st b st', ustep st b = Some st' -> b < 256.
Proof.
  intros st b st' H. destruct st; unfold ustep, in_rng in H;
    repeat match type of H with
           | context [N.ltb ?x ?y] => destruct (N.ltb_spec x y)
           | context [N.leb ?x ?y] => destruct (N.leb_spec x y)
           | context [N.eqb ?x ?y] => destruct (N.eqb_spec x y)
           end; try discriminate; lia.
Qed.

Lemma urun_bytes : forall l st st', urun st l = Some st' -> Forall (fun b => b < 256) l.
Proof.
  induction l as [|b r IH]; intros st st' H; [constructor|].
  simpl in H. destruct (ustep st b) eqn:E; [|discriminate].
  constructor; [exact (ustep_byte _ _ _ E)|exact (IH _ _ H)].
Qed.

Lemma valid_text_bytes : forall s, valid_text s -> Forall (fun b => b < 256) s.
Proof.
  intros s H. unfold valid_text, utf8_valid in H.
  destruct (urun U0 s) eqn:E; [|discriminate]. exact (urun_bytes _ _ _ E).
Qed.

Lemma dbyte_not_bsl : forall d, (dbyte d =? BSL) = false.
Proof. destruct d; reflexivity. Qed.

Lemma dbyte_lt128 : forall d, dbyte d < 128.
Proof. destruct d; simpl; lia. Qed.

Lemma dbyte_not_lbr : forall d, (dbyte d =? LBR) = false.
Proof. destruct d; reflexivity. Qed.

Lemma stops_dbyte : forall d, stops d (dbyte d) = true.
Proof. intros d. unfold stops. rewrite N.eqb_refl. reflexivity. Qed.

Lemma stops_bsl : forall d, stops d BSL = false.
Proof. destruct d; reflexivity. Qed.

Section Table.
Variable tbl : esc_table.
Hypothesis Htbl : table_ok tbl = true.

Lemma lookup_in : forall t k out, lookup t k = Some out -> In (k, out) t.
Proof.
  induction t as [|[k' o'] t IH]; intros k out H; simpl in H; [discriminate|].
  destruct (N.eqb_spec k k') as [->|Hne].
  - inversion H; subst. left; reflexivity.
  - right. apply IH. exact H.
Qed.

Lemma table_entries : forall k out, In (k, out) tbl -> k < 128 /\ all_lt128 out = true.
Proof.
  intros k out Hin. unfold table_ok in Htbl. apply andb_true_iff in Htbl as [Hall _].
  rewrite forallb_forall in Hall. specialize (Hall _ Hin). simpl in Hall.
  destruct (N.ltb_spec k 128); [split; assumption|discriminate].
Qed.

Lemma esc_for_lookup : forall b k, esc_for tbl b = Some k -> lookup tbl k = Some [b].
Proof.
  intros b k H. unfold esc_for in H. apply find_some in H as [_ H].
  unfold denotes in H. destruct (lookup tbl k) as [[|x [|y l]]|]; try discriminate.
  apply N.eqb_eq in H. subst. reflexivity.
Qed.

Lemma esc_for_ascii : forall b k, esc_for tbl b = Some k -> k < 128 /\ b < 128.
Proof.
  intros b k H. pose proof (esc_for_lookup _ _ H) as Hl.
  apply lookup_in in Hl. apply table_entries in Hl as [Hk Ho]. split; [exact Hk|].
  simpl in Ho. destruct (N.ltb_spec b 128); [assumption|discriminate].
Qed.

Lemma esc_for_bsl : exists k, esc_for tbl BSL = Some k.
Proof.
  unfold table_ok in Htbl. apply andb_true_iff in Htbl as [_ H].
  destruct (esc_for tbl BSL) as [k|]; [exists k; reflexivity|discriminate].
Qed.

Lemma is_key_false : forall k, is_key tbl k = false -> lookup tbl k = None.
Proof. intros k H. unfold is_key in H. destruct (lookup tbl k); [discriminate|reflexivity]. Qed.

Lemma scan_part_key : forall stop k out r,
  lookup tbl k = Some out ->
  scan_part tbl stop (BSL :: k :: r) =
  (let (o, rest) := scan_part tbl stop r in (out ++ o, rest)).
Proof. intros. simpl. rewrite H. reflexivity. Qed.

Lemma scan_part_lone : forall stop k r,
  lookup tbl k = None ->
  scan_part tbl stop (BSL :: k :: r) =
  (let (o, rest) := scan_part tbl stop (k :: r) in (BSL :: o, rest)).
Proof. intros. cbn [scan_part]. change (BSL =? BSL) with true. cbv iota. rewrite H. reflexivity. Qed.

Lemma scan_part_plain : forall stop b r,
  (b =? BSL) = false -> stop b = false ->
  scan_part tbl stop (b :: r) =
  (let (o, rest) := scan_part tbl stop r in (b :: o, rest)).
Proof. intros. cbn [scan_part]. rewrite H, H0. reflexivity. Qed.

Lemma scan_part_stop : forall stop b r,
  (b =? BSL) = false -> stop b = true ->
  scan_part tbl stop (b :: r) = ([], b :: r).
Proof. intros. cbn [scan_part]. rewrite H, H0. reflexivity. Qed.

Section Printer.
Variable d : delim.
Variable choice : nat -> N -> bool.

Let dd := dbyte d.

(* what raw_legal established when a backslash was written raw *)
Definition forced_pre (f : bool) (s : list N) : Prop :=
  f = true ->
  match s with
  | [] => is_key tbl dd = false
  | nb :: _ => is_key tbl nb = false /\ stops d nb = false /\ (nb =? BSL) = false
  end.

Lemma forced_pre_false : forall s, forced_pre false s.
Proof. intros s H. discriminate. Qed.

Lemma raw_legal_bsl : forall r, raw_legal tbl d BSL r = true -> forced_pre true r.
Proof.
  intros r H _. unfold raw_legal in H. change (BSL =? BSL) with true in H. cbv iota in H.
  destruct r as [|nb r].
  - apply negb_true_iff in H. exact H.
  - destruct (is_key tbl nb); [discriminate|]. destruct (stops d nb); [discriminate|].
    apply negb_true_iff in H. auto.
Qed.

Lemma forced_head : forall i r, forced_pre true r ->
  exists h t, escape_from tbl d choice i true r ++ [dd] = h :: t /\ lookup tbl h = None.
Proof.
  intros i r H. specialize (H eq_refl). destruct r as [|nb r]; simpl.
  - exists dd, []. split; [reflexivity|apply is_key_false; exact H].
  - destruct H as [H _]. eexists; eexists. split; [reflexivity|apply is_key_false; exact H].
Qed.

(* the printer only replaces ASCII bytes by ASCII bytes, at rune boundaries *)
Lemma urun_escape : forall s st i f,
  urun st (escape_from tbl d choice i f s) = urun st s.
Proof.
  induction s as [|b r IH]; intros st i f; [reflexivity|].
  cbn [escape_from]. destruct f.
  { simpl. destruct (ustep st b); [apply IH|reflexivity]. }
  destruct (esc_for tbl b) as [k|] eqn:E.
  2:{ simpl. destruct (ustep st b); [apply IH|reflexivity]. }
  destruct (esc_for_ascii _ _ E) as [Hk Hb].
  destruct (if raw_legal tbl d b r then choice i b else false).
  - simpl. destruct (ustep st b); [apply IH|reflexivity].
  - assert (HB : BSL < 128) by (unfold BSL; lia).
    rewrite (urun_ascii_cons st BSL _ HB), (urun_ascii_cons st b r Hb).
    destruct st; try reflexivity.
    rewrite (urun_ascii_cons U0 k _ Hk). apply IH.
Qed.

Lemma quote_escape_valid : forall s, valid_text s ->
  utf8_valid (quote d (escape tbl d choice s)) = true.
Proof.
  intros s H. unfold valid_text, utf8_valid in *. unfold quote, escape.
  rewrite (urun_ascii_cons U0 _ _ (dbyte_lt128 d)), urun_app, urun_escape.
  destruct (urun U0 s) as [[]|]; try discriminate.
  rewrite (urun_ascii_cons U0 _ _ (dbyte_lt128 d)). reflexivity.
Qed.

Lemma representable_cons : forall b r, representable tbl d (b :: r) = true ->
  (stops d b = true -> exists k, esc_for tbl b = Some k) /\ representable tbl d r = true.
Proof.
  intros b r H. unfold representable in H. simpl in H. apply andb_true_iff in H as [H1 H2].
  split; [|exact H2]. intros Hs. rewrite Hs in H1.
  destruct (esc_for tbl b) as [k|]; [exists k; reflexivity|discriminate].
Qed.

Lemma scan_escape : forall s i f,
  representable tbl d s = true -> forced_pre f s ->
  scan_part tbl (stops d) (escape_from tbl d choice i f s ++ [dd]) = (s, [dd]).
Proof.
  induction s as [|b r IH]; intros i f Hrep Hpre.
  - cbn [escape_from app]. apply scan_part_stop; [apply dbyte_not_bsl|apply stops_dbyte].
  - destruct (representable_cons _ _ Hrep) as [Hesc Hrep'].
    pose proof (forced_pre_false r) as Hnf.
    assert (Hplain : forall j, (b =? BSL) = false -> stops d b = false ->
              scan_part tbl (stops d) ((b :: escape_from tbl d choice j false r) ++ [dd]) = (b :: r, [dd])).
    { intros j H1 H2. rewrite <- app_comm_cons, (scan_part_plain _ _ _ H1 H2), (IH j false Hrep' Hnf).
      reflexivity. }
    cbn [escape_from]. destruct f.
    { destruct (Hpre eq_refl) as (_ & H2 & H3). apply Hplain; auto. }
    destruct (esc_for tbl b) as [k|] eqn:E.
    2:{ assert (Hs : stops d b = false).
        { destruct (stops d b) eqn:S; [|reflexivity]. destruct (Hesc eq_refl); discriminate. }
        assert (Hb : (b =? BSL) = false).
        { destruct (N.eqb_spec b BSL) as [->|]; [|reflexivity].
          destruct esc_for_bsl as [k Hk]. congruence. }
        apply Hplain; auto. }
    destruct (if raw_legal tbl d b r then choice i b else false) eqn:Raw.
    +
      assert (RL : raw_legal tbl d b r = true) by (destruct (raw_legal tbl d b r); [reflexivity|discriminate]).
      destruct (N.eqb_spec b BSL) as [->|Hne].
      * pose proof (raw_legal_bsl _ RL) as Hpre'.
        destruct (forced_head (S i) r Hpre') as (h & t & Hht & Hl).
        rewrite <- app_comm_cons, Hht, (scan_part_lone _ _ _ Hl), <- Hht, (IH (S i) true Hrep' Hpre').
        reflexivity.
      * assert (Hb : (b =? BSL) = false) by (apply N.eqb_neq; exact Hne).
        unfold raw_legal in RL. rewrite Hb in RL. apply negb_true_iff in RL.
        apply Hplain; auto.
    + rewrite <- !app_comm_cons, (scan_part_key _ _ _ _ (esc_for_lookup _ _ E)), (IH (S i) false Hrep' Hnf).
      reflexivity.
Qed.

(* a non-empty text never starts with something the empty-literal alternative or the
   closing delimiter could take *)
Lemma escape_head : forall b r i, representable tbl d (b :: r) = true ->
  exists h t, escape_from tbl d choice i false (b :: r) = h :: t /\
              part_starts (stops d) (h :: t ++ [dd]) = true /\ (h =? dd) = false.
Proof.
  intros b r i Hrep. destruct (representable_cons _ _ Hrep) as [Hesc _].
  assert (Hbsl : (BSL =? dd) = false) by (rewrite N.eqb_sym; apply dbyte_not_bsl).
  assert (Hraw : stops d b = false -> forall t, part_starts (stops d) (b :: t ++ [dd]) = true /\ (b =? dd) = false).
  { intros Hs t. split.
    - simpl. rewrite Hs. destruct (b =? BSL); reflexivity.
    - destruct (N.eqb_spec b dd) as [->|]; [|reflexivity]. unfold dd in Hs. rewrite stops_dbyte in Hs. discriminate. }
  cbn [escape_from]. destruct (esc_for tbl b) as [k|] eqn:E.
  - destruct (if raw_legal tbl d b r then choice i b else false) eqn:Raw.
    + assert (RL : raw_legal tbl d b r = true) by (destruct (raw_legal tbl d b r); [reflexivity|discriminate]).
      eexists; eexists; split; [reflexivity|].
      destruct (N.eqb_spec b BSL) as [->|Hne].
      * split; [reflexivity|exact Hbsl].
      * apply Hraw. unfold raw_legal in RL. apply N.eqb_neq in Hne. rewrite Hne in RL.
        apply negb_true_iff in RL. exact RL.
    + eexists; eexists; split; [reflexivity|]. split; [reflexivity|exact Hbsl].
  - eexists; eexists; split; [reflexivity|]. apply Hraw.
    destruct (stops d b) eqn:S; [|reflexivity]. destruct (Hesc eq_refl); discriminate.
Qed.

Lemma body_loop_at_close : forall (H : Type) (hole : list N -> option (H * list N)) n,
  body_loop tbl H hole n (is_template d) (stops d) [dd] = Some ([], [dd]).
Proof.
  intros H hole [|n]; [reflexivity|].
  cbn [body_loop part_starts]. unfold dd. rewrite dbyte_not_bsl, stops_dbyte. cbn [negb].
  rewrite dbyte_not_lbr. destruct (is_template d); reflexivity.
Qed.

Theorem literal_roundtrip : forall s,
  valid_text s -> representable tbl d s = true ->
  lex tbl d (quote d (escape tbl d choice s)) = Some [s].
Proof.
  intros s Hv Hrep. unfold lex, lex_gen.
  rewrite (quote_escape_valid s Hv). cbn [negb]. unfold quote. fold dd.
  rewrite N.eqb_refl. cbn [negb].
  destruct s as [|b r].
  - simpl. rewrite N.eqb_refl. reflexivity.
  - unfold escape. destruct (escape_head b r O Hrep) as (h & t & Hht & Hps & Hne).
    pose proof (scan_escape (b :: r) O false Hrep (forced_pre_false _)) as Hscan.
    rewrite Hht in *. rewrite <- app_comm_cons in *. rewrite Hne.
    cbn [body_loop]. rewrite Hps, Hscan, body_loop_at_close. rewrite N.eqb_refl. reflexivity.
Qed.

Theorem literal_value : forall s, lit_value d [s] = s.
Proof. intros s. unfold lit_value. destruct (is_template d); simpl; [apply app_nil_r|reflexivity]. Qed.

End Printer.

End Table.

Definition part_byte_ok (tbl : esc_table) (stop : N -> bool) (x : N) : Prop :=
  stop x = false \/ x = BSL \/ exists k out, lookup tbl k = Some out /\ In x out.

Lemma scan_part_bytes : forall tbl stop l x,
  In x (fst (scan_part tbl stop l)) -> part_byte_ok tbl stop x.
Proof.
  (* scan_part recurses on the tail and, past an escape, on the tail's tail: induction on a
     bound of the length *)
  intros tbl stop l. unfold part_byte_ok. generalize (Nat.le_refl (length l)).
  generalize (length l) at 2. intros n. revert l.
  induction n as [|n IHn]; intros l Hn x Hin;
    (destruct l as [|b r]; [simpl in Hin; contradiction|]); [simpl in Hn; lia|].
  cbn [scan_part] in Hin. destruct (b =? BSL) eqn:Eb.
  - destruct r as [|k r']; [simpl in Hin; destruct Hin as [<-|[]]; auto|].
    destruct (lookup tbl k) as [out|] eqn:El.
    + destruct (scan_part tbl stop r') as [o rest] eqn:Es. simpl in Hin.
      apply in_app_or in Hin as [Hin|Hin].
      * right; right. exists k, out. auto.
      * apply (IHn r'); [simpl in Hn; lia|rewrite Es; exact Hin].
    + destruct (scan_part tbl stop (k :: r')) as [o rest] eqn:Es. simpl in Hin.
      destruct Hin as [<-|Hin]; [auto|].
      apply (IHn (k :: r')); [simpl in *; lia|rewrite Es; exact Hin].
  - destruct (stop b) eqn:Sb; [simpl in Hin; contradiction|].
    destruct (scan_part tbl stop r) as [o rest] eqn:Es. simpl in Hin.
    destruct Hin as [<-|Hin]; [auto|].
    apply (IHn r); [simpl in Hn; lia|rewrite Es; exact Hin].
Qed.

Lemma actual_table_ok : table_ok actual_table = true.
Proof. vm_compute. reflexivity. Qed.

Lemma actual_esc_for_ascii_cases : forall b,
  esc_for actual_table b =
  if b =? 10 then Some 110 else if b =? 13 then Some 114 else if b =? 12 then Some 102
  else if b =? 9 then Some 116 else if b =? 92 then Some 92 else if b =? 39 then Some 39
  else if b =? 34 then Some 34 else if b =? 123 then Some 123 else if b =? 125 then Some 125
  else None.
Proof.
  (* with the tests oriented alike both sides evaluate to the same decision list *)
  intros b. rewrite !(N.eqb_sym b). reflexivity.
Qed.

(* which texts can be written, per style: everything for '...' and "..."; everything
   without the delimiter itself for `...` and 0x1E...0x1E (the grammar has no escape for
   the backtick or for 0x1E; '{' has one) *)
Lemma representable_quoted : forall d s, is_template d = false -> representable actual_table d s = true.
Proof.
  intros d s Ht. unfold representable. apply forallb_forall. intros b _.
  unfold stops. rewrite Ht. destruct (N.eqb_spec b (dbyte d)) as [->|]; [|reflexivity].
  destruct d; try discriminate; reflexivity.
Qed.

Lemma representable_template : forall d s, is_template d = true ->
  (representable actual_table d s = true <-> ~ In (dbyte d) s).
Proof.
  intros d s Ht. unfold representable. rewrite forallb_forall. split.
  - intros H Hin. specialize (H _ Hin). rewrite stops_dbyte in H.
    destruct d; try discriminate; vm_compute in H; discriminate.
  - intros Hn b Hin. unfold stops. rewrite Ht.
    destruct (N.eqb_spec b (dbyte d)) as [->|Hne]; [contradiction|].
    destruct (N.eqb_spec b LBR) as [->|]; reflexivity.
Qed.

Lemma body_loop_parts : forall tbl holes stop fuel l es rest,
  body_loop tbl Empty_set no_hole fuel holes stop l = Some (es, rest) ->
  forall p x, In p (parts_of es) -> In x p -> part_byte_ok tbl stop x.
Proof.
  intros tbl holes stop. induction fuel as [|f IH]; intros l es rest H p x Hp Hx.
  - simpl in H. inversion H; subst. simpl in Hp. contradiction.
  - cbn [body_loop] in H. destruct (part_starts stop l).
    + destruct (scan_part tbl stop l) as [o r1] eqn:Es.
      destruct (body_loop tbl Empty_set no_hole f holes stop r1) as [[es' r2]|] eqn:Eb; [|discriminate].
      inversion H; subst. simpl in Hp. destruct Hp as [<-|Hp].
      * apply (scan_part_bytes tbl stop l). rewrite Es. exact Hx.
      * exact (IH _ _ _ Eb p x Hp Hx).
    + destruct l as [|b r]; [inversion H; subst; simpl in Hp; contradiction|].
      destruct (if holes then b =? LBR else false).
      * unfold no_hole in H. discriminate.
      * inversion H; subst. simpl in Hp. contradiction.
Qed.

Lemma actual_outputs_escapable : forall k out x,
  lookup actual_table k = Some out -> In x out -> exists k', esc_for actual_table x = Some k'.
Proof.
  intros k out x Hl Hin. apply lookup_in in Hl. simpl in Hl.
  repeat (destruct Hl as [Hl|Hl];
          [inversion Hl; subst; simpl in Hin; destruct Hin as [<-|[]]; eexists; vm_compute; reflexivity|]).
  contradiction.
Qed.

Lemma lex_inv : forall tbl d src parts, lex tbl d src = Some parts ->
  parts = [[]] \/
  exists fuel l es rest,
    body_loop tbl Empty_set no_hole fuel (is_template d) (stops d) l = Some (es, rest) /\
    parts = parts_of es.
Proof.
  intros tbl d src parts H. unfold lex in H.
  destruct (lex_gen tbl Empty_set no_hole d src) as [[es [|? ?]]|] eqn:E; try discriminate.
  inversion H; subst parts. clear H. unfold lex_gen in E.
  destruct (negb (utf8_valid src)); [discriminate|].
  destruct src as [|o r]; [discriminate|]. destruct (negb (o =? dbyte d)); [discriminate|].
  destruct r as [|c r']; [discriminate|]. destruct (c =? dbyte d).
  - inversion E; subst. left. reflexivity.
  - destruct (body_loop tbl Empty_set no_hole (S (length (c :: r'))) (is_template d) (stops d) (c :: r'))
      as [[es' [|c' rest]]|] eqn:Eb; try discriminate.
    destruct (c' =? dbyte d); [|discriminate]. inversion E; subst.
    right. do 4 eexists. split; [exact Eb|reflexivity].
Qed.

Theorem lex_representable : forall d src parts,
  lex actual_table d src = Some parts -> representable actual_table d (concat parts) = true.
Proof.
  intros d src parts H. unfold representable. apply forallb_forall. intros x Hx.
  apply in_concat in Hx as (p & Hp & Hxp).
  assert (Hok : part_byte_ok actual_table (stops d) x).
  { destruct (lex_inv _ _ _ _ H) as [->|(fuel & l & es & rest & Eb & ->)].
    - destruct Hp as [<-|[]]. contradiction.
    - exact (body_loop_parts _ _ _ _ _ _ _ Eb p x Hp Hxp). }
  destruct (stops d x) eqn:S; [|reflexivity].
  destruct Hok as [Hs|[->|(k & out & Hl & Hin)]].
  - congruence.
  - rewrite stops_bsl in S. discriminate.
  - destruct (actual_outputs_escapable _ _ _ Hl Hin) as [k' ->]. reflexivity.
Qed.

Section VMProofs.
Variable V E : Type.
Variable tostr : V -> list N.
Variable vstr : list N -> V.
Variable cap : nat.
Hypothesis tostr_vstr : forall s, tostr (vstr s) = s.

Notation exec := (exec V E tostr vstr cap).
Notation step := (step V E tostr vstr cap).
Notation framed := (framed V E tostr vstr cap).
Notation vmst := (vmst V E).
Notation lift := (lift V E).
Notation hsem := (hsem V E).

(* the first instruction of the code, with the step function opened on the given state *)
Ltac run_step := cbn [StrLit.exec]; unfold StrLit.step; cbn [stk env fb].

Lemma exec_app : forall a b (s : vmst),
  exec (a ++ b) s = match exec a s with Done s' => exec b s' | Err e => Err e | Panic => Panic | Stale => Stale end.
Proof.
  induction a as [|i a IH]; intros b s; [reflexivity|].
  simpl. destruct (step i s); try reflexivity. apply IH.
Qed.

Lemma framed_ext : forall c (s1 s2 : hsem),
  (forall d e, s1 d e = s2 d e) -> framed c s1 -> framed c s2.
Proof. intros c s1 s2 H F e base fbs. rewrite <- H. apply F. Qed.

Lemma framed_nil : framed [] (sem_nil V E).
Proof. intros e base fbs. left. reflexivity. Qed.

Lemma framed_push : forall x, framed [IPushStr x] (sem_push V E vstr x).
Proof.
  intros x e base fbs. unfold upto_overflow. run_step.
  destruct (Nat.eqb (length base) cap); [right; reflexivity|left; reflexivity].
Qed.

Lemma framed_prim : forall f, prim_ok V E f -> framed [IPrim f] (sem_prim V E f).
Proof.
  intros f Hf e base fbs. unfold upto_overflow, sem_prim. run_step.
  destruct (Nat.eqb (length base) cap); [right; reflexivity|].
  specialize (Hf e base). destruct (f e []) as [[e' extra]| | |]; destruct Hf as [-> | ->]; auto.
Qed.

Lemma framed_seq : forall c1 c2 (s1 s2 : hsem),
  framed c1 s1 -> framed c2 s2 -> framed (c1 ++ c2) (sem_seq V E s1 s2).
Proof.
  intros c1 c2 s1 s2 F1 F2 e base fbs. rewrite exec_app. unfold sem_seq.
  destruct (F1 e base fbs) as [-> | ->]; [|right; reflexivity].
  destruct (s1 (length fbs) e) as [[e1 x1]| | |]; cbn [StrLit.lift]; try (left; reflexivity).
  destruct (F2 e1 (x1 ++ base) fbs) as [-> | ->]; [|right; reflexivity].
  destruct (s2 (length fbs) e1) as [[e2 x2]| | |]; cbn [StrLit.lift]; try (left; reflexivity).
  left. rewrite app_assoc. reflexivity.
Qed.

Lemma bottom_app : forall (ex base : list V), bottom V (length base) (ex ++ base) = base.
Proof.
  intros ex base. unfold bottom. rewrite app_length.
  replace (length ex + length base - length base)%nat with (length ex) by lia.
  rewrite skipn_app, skipn_all, Nat.sub_diag. reflexivity.
Qed.

Lemma fspop_exact : forall e' (extra base : list V) fbs,
  length (extra ++ base) <> cap ->
  exec [IFsPop] {| env := e'; stk := extra ++ base; fb := length base :: fbs |} =
    Done {| env := e'; stk := hole_val V vstr extra :: base; fb := fbs |}.
Proof.
  intros e' extra base fbs Hc2.
  run_step.
  apply Nat.eqb_neq in Hc2. rewrite Hc2.
  destruct extra as [|v ex].
  - cbn [app]. rewrite Nat.eqb_refl. reflexivity.
  - cbn [app]. assert (Hne : Nat.eqb (length base) (length (v :: ex ++ base)) = false).
    { apply Nat.eqb_neq. simpl. rewrite app_length. lia. }
    rewrite Hne. assert (Hle : Nat.leb (length base) (length (ex ++ base)) = true).
    { apply Nat.leb_le. rewrite app_length. lia. }
    rewrite Hle, bottom_app. reflexivity.
Qed.

(* WHATEVER the code between fstr.block.push and
   fstr.block.pop left above the saved height, exactly one value remains there: the top
   one, or "" when nothing was left *)
Lemma hole_pushes_one_direct : forall c e base fbs e' extra,
  (length fbs < FSTR_DEPTH)%nat -> length base <> cap -> length (extra ++ base) <> cap ->
  exec c {| env := e; stk := base; fb := length base :: fbs |} =
    Done {| env := e'; stk := extra ++ base; fb := length base :: fbs |} ->
  exec (IFsPush :: c ++ [IFsPop]) {| env := e; stk := base; fb := fbs |} =
    Done {| env := e'; stk := hole_val V vstr extra :: base; fb := fbs |}.
Proof.
  intros c e base fbs e' extra Hd Hc1 Hc2 Hc.
  run_step.
  apply Nat.eqb_neq in Hc1. rewrite Hc1.
  assert (Hl : Nat.leb FSTR_DEPTH (length fbs) = false) by (apply Nat.leb_gt; exact Hd). rewrite Hl.
  rewrite exec_app, Hc. apply fspop_exact. exact Hc2.
Qed.

Lemma framed_hole : forall c (s : hsem),
  framed c s -> framed (IFsPush :: c ++ [IFsPop]) (sem_hole V E vstr s).
Proof.
  intros c s F e base fbs. unfold sem_hole.
  run_step.
  destruct (Nat.eqb (length base) cap) eqn:Hc1; [right; reflexivity|].
  destruct (Nat.leb FSTR_DEPTH (length fbs)) eqn:Hl; [left; reflexivity|].
  rewrite exec_app.
  destruct (F e base (length base :: fbs)) as [-> | ->]; [|right; reflexivity].
  cbn [length]. destruct (s (S (length fbs)) e) as [[e' extra]| | |]; cbn [StrLit.lift]; try (left; reflexivity).
  destruct (Nat.eqb (length (extra ++ base)) cap) eqn:Hc2.
  - right. run_step. rewrite Hc2. reflexivity.
  - left. apply Nat.eqb_neq in Hc2. apply fspop_exact. exact Hc2.
Qed.

Lemma framed_ldfs : forall c (s : hsem) n,
  framed c s -> (forall d e e' vals, s d e = Done (e', vals) -> length vals = n) ->
  framed (c ++ [ILdFs n]) (sem_ldfs V E tostr vstr s).
Proof.
  intros c s n F Hn e base fbs. rewrite exec_app. unfold sem_ldfs.
  destruct (F e base fbs) as [-> | ->]; [|right; reflexivity].
  destruct (s (length fbs) e) as [[e' vals]| | |] eqn:Es; cbn [StrLit.lift]; try (left; reflexivity).
  pose proof (Hn _ _ _ _ Es) as Hlen.
  run_step.
  destruct (Nat.eqb (length (vals ++ base)) cap); [right; reflexivity|left].
  assert (Hlt : Nat.ltb (length (vals ++ base)) n = false).
  { apply Nat.ltb_ge. rewrite app_length. lia. }
  rewrite Hlt. subst n. rewrite firstn_app, firstn_all, Nat.sub_diag, firstn_O, app_nil_r.
  rewrite skipn_app, skipn_all, Nat.sub_diag. reflexivity.
Qed.

Definition part_sem (p : tpart V E) : hsem :=
  match p with TLit s => sem_push V E vstr s | THole _ sem => sem_hole V E vstr sem end.

Fixpoint parts_sem (ps : list (tpart V E)) : hsem :=
  match ps with
  | [] => sem_nil V E
  | p :: r => sem_seq V E (part_sem p) (parts_sem r)
  end.

Lemma framed_cpart : forall p, part_ok V E tostr vstr cap p -> framed (cpart V E p) (part_sem p).
Proof.
  intros [s|c sem] H; simpl.
  - apply framed_push.
  - apply framed_hole. exact H.
Qed.

Lemma framed_parts : forall ps, Forall (part_ok V E tostr vstr cap) ps ->
  framed (compile_parts V E ps) (parts_sem ps).
Proof.
  induction ps as [|p r IH]; intros H.
  - apply framed_nil.
  - inversion H; subst. unfold compile_parts. cbn [flat_map parts_sem].
    apply framed_seq; [apply framed_cpart; assumption|apply IH; assumption].
Qed.

Lemma part_sem_one : forall p d e e' vals, part_sem p d e = Done (e', vals) -> length vals = 1%nat.
Proof.
  intros [s|c sem] d e e' vals H; simpl in H.
  - unfold sem_push in H. inversion H. reflexivity.
  - unfold sem_hole in H. destruct (Nat.leb FSTR_DEPTH d); [discriminate|].
    destruct (sem (S d) e) as [[e1 ex]| | |]; inversion H. reflexivity.
Qed.

Lemma parts_sem_count : forall ps d e e' vals,
  parts_sem ps d e = Done (e', vals) -> length vals = length ps.
Proof.
  induction ps as [|p r IH]; intros d e e' vals H.
  - inversion H. reflexivity.
  - cbn [parts_sem] in H. unfold sem_seq in H.
    destruct (part_sem p d e) as [[e1 x1]| | |] eqn:E1; try discriminate.
    destruct (parts_sem r d e1) as [[e2 x2]| | |] eqn:E2; try discriminate.
    inversion H; subst. rewrite app_length, (IH _ _ _ _ E2), (part_sem_one _ _ _ _ _ E1). simpl. lia.
Qed.

Lemma parts_sem_text : forall ps d e,
  tmpl_text V E tostr vstr ps d e =
  match parts_sem ps d e with
  | Done (e', vals) => Done (e', concat (map tostr (rev vals)))
  | Err x => Err x | Panic => Panic | Stale => Stale
  end.
Proof.
  induction ps as [|p r IH]; intros d e; [reflexivity|].
  cbn [parts_sem tmpl_text]. unfold sem_seq. destruct p as [s|c sem]; cbn [part_sem].
  - unfold sem_push. rewrite IH. destruct (parts_sem r d e) as [[e2 x2]| | |]; try reflexivity.
    rewrite rev_app_distr. simpl. rewrite tostr_vstr. reflexivity.
  - destruct (sem_hole V E vstr sem d e) as [[e1 vs]| | |] eqn:Eh; try reflexivity.
    rewrite IH. destruct (parts_sem r d e1) as [[e2 x2]| | |]; try reflexivity.
    unfold sem_hole in Eh. destruct (Nat.leb FSTR_DEPTH d); [discriminate|].
    destruct (sem (S d) e) as [[e1' ex]| | |]; inversion Eh; subst.
    rewrite rev_app_distr. simpl. reflexivity.
Qed.

(* the compiled template, run on top of any stack inside any number of
   open holes, leaves exactly one value: the concatenation, in order, of the literal
   segments and the string forms of the holes' values, with the variables as the holes
   left them (or reports the hole's error / the nesting error / a full stack) *)
Theorem template_concat : forall ps, Forall (part_ok V E tostr vstr cap) ps ->
  framed (compile V E ps) (tmpl_sem V E tostr vstr ps).
Proof.
  intros ps H. unfold compile.
  apply framed_ext with (s1 := sem_ldfs V E tostr vstr (parts_sem ps)).
  - intros d e. unfold sem_ldfs, tmpl_sem. rewrite parts_sem_text.
    destruct (parts_sem ps d e) as [[e' vals]| | |]; reflexivity.
  - apply framed_ldfs; [apply framed_parts; exact H|].
    intros d e e' vals Hs. exact (parts_sem_count _ _ _ _ _ Hs).
Qed.

Corollary template_is_part : forall ps, Forall (part_ok V E tostr vstr cap) ps ->
  part_ok V E tostr vstr cap (THole (compile V E ps) (tmpl_sem V E tostr vstr ps)).
Proof. intros ps H. exact (template_concat ps H). Qed.

Lemma nesting_limit_is_error : forall (s : vmst),
  (FSTR_DEPTH <= length (fb s))%nat ->
  step IFsPush s = Err ENesting \/ step IFsPush s = Err EOverflow.
Proof.
  intros s H. unfold StrLit.step. destruct (Nat.eqb (length (stk s)) cap); [right; reflexivity|left].
  apply Nat.leb_le in H. rewrite H. reflexivity.
Qed.
End VMProofs.

(* C17, about Model/Custom.v.  The pending-match protocol: on a match the three operations consume
   and emit exactly the match, a stale slot is never used, a matcher that never matches leaves
   no trace.  Identity hooks and identity rewriters are transparent.  typeCustomDice calls the
   handler once per evaluation, with the compiled groups and payload, and uses its result by copy. *)
From Coq Require Import NArith ZArith List String Bool Lia.
From DS Require Import Model.Custom.
Import ListNotations.
Open Scope N_scope.
Local Arguments read_to : simpl never.

Section ProtocolProofs.
  Variable m : N -> option rawmatch.
  Variable width : N -> N.

  (* `t` is reachable from `o` by whole runes: what every registered matcher guarantees (regexp matches on a Go string
     and CustomDiceStream.Read / ReadExpr end on rune boundaries of the parser's own decoder) *)
  Inductive boundary_from : N -> N -> Prop :=
  | bf_refl : forall o, boundary_from o o
  | bf_step : forall o t, 0 < width o -> o + width o <= t -> boundary_from (o + width o) t -> boundary_from o t.

  Lemma read_to_S : forall f t o,
    read_to width (S f) t o = if o <? t then read_to width f t (o + width o) else o.
  Proof. reflexivity. Qed.

  Lemma read_to_exact : forall o t, boundary_from o t ->
    forall fuel, (N.to_nat (t - o) < fuel)%nat -> read_to width fuel t o = t.
  Proof.
    induction 1 as [o | o t Hw Hle Hb IH]; intros [| f] Hf; try lia; rewrite read_to_S.
    - now rewrite N.ltb_irrefl.
    - replace (o <? t) with true by (symmetry; apply N.ltb_lt; lia). apply IH. lia.
  Qed.

  Lemma set_pending_eq : forall s p, pending s = p -> set_pending s p = s.
  Proof. intros [p o e] q; simpl; intros ->; reflexivity. Qed.

  Theorem protocol_on_match : forall s r,
    m (offset s) = Some r -> (0 < rm_len r)%Z ->
    boundary_from (offset s) (offset s + Z.to_N (rm_len r)) ->
    let s1 := snd (prepare m s) in
    let s2 := consume m width s1 in
    let s3 := commit s2 in
    fst (prepare m s) = true /\
    offset s2 = offset s + Z.to_N (rm_len r) /\
    emitted s3 = emitted s ++ [compile r] /\
    pending s3 = None /\ offset s3 = offset s2.
  Proof.
    intros s r Hm Hlen Hb.
    unfold prepare, try_match. rewrite Hm. simpl.
    unfold consume, ensure_pending. simpl. rewrite N.eqb_refl. simpl.
    assert (Hle : (rm_len r <=? 0)%Z = false) by lia.
    rewrite Hle. simpl.
    rewrite read_to_exact with (o := offset s) (t := offset s + Z.to_N (rm_len r)); [| assumption | lia].
    unfold commit. simpl. repeat split; reflexivity.
  Qed.

  Definition pwf (s : pstate) : Prop := forall p, pending s = Some p -> try_match m (m_start p) = Some p.

  Lemma try_match_start : forall o mt, try_match m o = Some mt -> m_start mt = o.
  Proof. unfold try_match; intros o mt; destruct (m o); intros H; inversion H; reflexivity. Qed.

  Lemma pwf_init : pwf pinit.
  Proof. intros p H; discriminate H. Qed.

  Lemma pwf_set : forall s o mt, try_match m o = Some mt -> pwf (set_pending s (Some mt)).
  Proof.
    intros s o mt H p Hp. simpl in Hp. inversion Hp; subst p.
    rewrite (try_match_start _ _ H). exact H.
  Qed.

  Lemma pwf_none : forall s, pwf (set_pending s None).
  Proof. intros s p H; discriminate H. Qed.

  Lemma pwf_try : forall s, pwf (set_pending s (try_match m (offset s))).
  Proof. intros s. destruct (try_match m (offset s)) eqn:E; [eapply pwf_set; eauto | apply pwf_none]. Qed.

  (* ensurePendingCustomDice keeps a match found at the current offset and looks again otherwise;
     a slot that only holds matcher answers makes the two the same *)
  Lemma ensure_pending_pwf : forall s, pwf s ->
    ensure_pending m s = (try_match m (offset s), set_pending s (try_match m (offset s))).
  Proof.
    intros s W. unfold ensure_pending. destruct (pending s) as [p |] eqn:Ep.
    - destruct (m_start p =? offset s) eqn:Eo; [| destruct (try_match m (offset s)); reflexivity].
      apply N.eqb_eq in Eo. rewrite <- Eo, (W p Ep). f_equal. symmetry. apply set_pending_eq, Ep.
    - destruct (try_match m (offset s)); reflexivity.
  Qed.

  Lemma pwf_step : forall o s, pwf s -> pwf (pstep m width o s).
  Proof.
    intros o s W. destruct o; simpl.
    - unfold prepare. destruct (try_match m (offset s)) eqn:E; simpl; [eapply pwf_set; eauto | apply pwf_none].
    - unfold consume. rewrite (ensure_pending_pwf s W).
      destruct (try_match m (offset s)) as [mt |] eqn:E; [| apply pwf_none].
      destruct (rm_len (m_raw mt) <=? 0)%Z; [apply pwf_none | exact (pwf_set s _ mt E)].
    - unfold commit. destruct (pending s); [intros q Hq; discriminate Hq | apply pwf_none].
  Qed.

  Lemma pwf_run : forall ops s, pwf s -> pwf (prun m width ops s).
  Proof. induction ops; simpl; intros; [assumption | apply IHops, pwf_step; assumption]. Qed.

  Theorem stale_pending_never_used : forall s, pwf s ->
    consume m width s = consume m width (set_pending s (try_match m (offset s))).
  Proof.
    intros s W. unfold consume.
    rewrite (ensure_pending_pwf _ (pwf_try s)), (ensure_pending_pwf s W). reflexivity.
  Qed.

  (* ... in every state the parser can be in *)
  Corollary stale_pending_never_used_reachable : forall ops o,
    let s := set_offset (prun m width ops pinit) o in
    consume m width s = consume m width (set_pending s (try_match m o)).
  Proof.
    intros ops o s. apply (stale_pending_never_used s).
    intros p Hp. apply (pwf_run ops pinit pwf_init p). exact Hp.
  Qed.

  Theorem never_matching_protocol_inert : (forall o, m o = None) ->
    forall ops s, pending s = None ->
    prun m width ops s = s /\ Forall (fun b => b = false) (prepared m width ops s).
  Proof.
    intros Hn. assert (Ht : forall o, try_match m o = None) by (intro o; unfold try_match; rewrite Hn; reflexivity).
    assert (Hstep : forall o s, pending s = None -> pstep m width o s = s).
    { intros o s Hp. destruct o; simpl.
      - unfold prepare. rewrite Ht. simpl. apply set_pending_eq, Hp.
      - unfold consume, ensure_pending. rewrite Hp, Ht. apply set_pending_eq, Hp.
      - unfold commit. rewrite Hp. apply set_pending_eq, Hp. }
    induction ops as [| o ops IH]; intros s Hp; simpl.
    - split; [reflexivity | constructor].
    - rewrite (Hstep o s Hp). destruct (IH s Hp) as [Hr Hf]. split; [exact Hr |].
      destruct o; simpl; try (rewrite (Hstep _ s Hp)); try exact Hf.
      constructor; [unfold prepare; rewrite Ht; reflexivity |].
      replace (snd (prepare m s)) with (pstep m width Prepare s) by reflexivity.
      rewrite (Hstep Prepare s Hp). exact Hf.
  Qed.
End ProtocolProofs.

Section HookProofs.
  Variable val : Type.
  Variable null : val.
  Variable is_null : val -> bool.
  Variable is_computed : val -> bool.
  Variable val_eqb : val -> val -> bool.
  Variable world : Type.
  Variable exec : val -> hst val world -> hst val world * option val.
  Variable builtin : string -> option val.

  Notation hstT := (hst val world).
  Notation solveH := (solve val is_computed val_eqb world exec).
  Notation load_chainH := (load_chain val null is_null is_computed val_eqb world exec builtin).
  Notation load_globalH := (load_global val null is_computed val_eqb world exec builtin).
  Notation load_nameH := (load_name val null is_null is_computed val_eqb world exec builtin).
  Notation store_nameH := (store_name val world).
  Notation idH := (id_hooks val world).
  Notation noH := (no_hooks val world).
  Notation obs := (observe val world).

  Lemma set_dret_twice : forall (s : hstT) a b, set_dret val world (set_dret val world s a) b = set_dret val world s b.
  Proof. reflexivity. Qed.

  Lemma set_dret_same : forall (s : hstT), set_dret val world s (dret val world s) = s.
  Proof. intros [c g e d w]; reflexivity. Qed.

  (* the post hook that calls doCompute: same value; same state when a value comes back; on failure only the dead
     Ret field of the span may differ *)
  Lemma solve_id : forall name v isRaw wd (s : hstT),
    let '(p1, pr) := solveH noH name v isRaw wd s in
    exists q1, solveH idH name v isRaw wd s = (q1, pr) /\
      (pr <> None -> q1 = p1) /\
      set_dret val world q1 None = set_dret val world p1 None.
  Proof.
    intros name v isRaw wd s. unfold solve. simpl.
    destruct wd; [| destruct (do_compute _ _ _ _ _ _ _ _); eexists; repeat split; reflexivity].
    unfold do_compute.
    destruct (if negb isRaw && is_computed v then exec v s else (s, Some v)) as [s1 [v' |]]; simpl.
    - destruct (opt_eqb val val_eqb (dret val world s) (Some v')); eexists; repeat split; reflexivity.
    - destruct (opt_eqb val val_eqb (dret val world s) (dret val world s1)); eexists; repeat split;
        try reflexivity; intros H; exfalso; apply H; reflexivity.
  Qed.

  Lemma obs_nil_eq : forall (a b : hstT), set_dret val world a None = set_dret val world b None ->
    obs (a, ONil val) = obs (b, ONil val) /\ obs (a, OPanic val) = obs (b, OPanic val).
  Proof. intros a b H. unfold observe. rewrite H. split; reflexivity. Qed.

  Lemma load_global_id : forall name isRaw wd (s : hstT),
    obs (load_globalH idH name isRaw wd s) = obs (load_globalH noH name isRaw wd s).
  Proof.
    intros name isRaw wd s. unfold load_global. simpl.
    pose proof (solve_id name (match builtin name with Some v => v | None => null end) isRaw wd s) as H.
    destruct (solveH noH name _ isRaw wd s) as [p1 pr]. destruct H as (q1 & -> & Hs & Hd).
    destruct pr as [v |].
    - rewrite Hs by discriminate. reflexivity.
    - apply obs_nil_eq. exact Hd.
  Qed.

  Lemma load_chain_id : forall name isRaw wd scopes (s : hstT),
    obs (load_chainH idH name isRaw wd scopes s) = obs (load_chainH noH name isRaw wd scopes s).
  Proof.
    intros name isRaw wd. induction scopes as [| sc up IH]; intros s.
    - simpl. apply load_global_id.
    - simpl.
      pose proof (solve_id name (match lookup val name sc with Some v => v | None => null end) isRaw wd s) as H.
      destruct (solveH noH name _ isRaw wd s) as [p1 pr]. destruct H as (q1 & -> & Hs & Hd).
      (* ctx.Error is not the Ret field *)
      replace (err val world q1) with (err val world p1) by exact (f_equal (err val world) (eq_sym Hd)).
      destruct pr as [v |].
      + rewrite Hs by discriminate.
        destruct (err val world p1); [reflexivity |].
        destruct (negb (is_null v)); [reflexivity | apply IH].
      + destruct (err val world p1); apply obs_nil_eq; exact Hd.
  Qed.

  Theorem identity_hooks_transparent_load : forall name isRaw useHook wd (s : hstT),
    obs (load_nameH idH name isRaw useHook wd s) = obs (load_nameH noH name isRaw useHook wd s).
  Proof.
    intros. unfold load_name. destruct useHook; simpl; apply load_chain_id.
  Qed.

  Theorem identity_hooks_transparent_store : forall name v useHook (s : hstT),
    store_nameH idH name v useHook s = store_nameH noH name v useHook s.
  Proof. intros. unfold store_name. destruct useHook; reflexivity. Qed.

  Corollary identity_hooks_transparent_value : forall name isRaw useHook wd (s s' : hstT) v,
    load_nameH noH name isRaw useHook wd s = (s', OVal val v) ->
    load_nameH idH name isRaw useHook wd s = (s', OVal val v).
  Proof.
    intros name isRaw useHook wd s s' v H.
    pose proof (identity_hooks_transparent_load name isRaw useHook wd s) as E. rewrite H in E.
    destruct (load_nameH idH name isRaw useHook wd s) as [q o]. destruct o; simpl in E; inversion E; reflexivity.
  Qed.
End HookProofs.

Section RewriterProofs.
  Variable span group : Type.
  Variable inner_spans : group -> list span.
  Variable last_span : group -> span.
  Variable sub_default : string -> span -> string.
  Variable main_default : string -> group -> list string -> string.
  Variable splice : string -> group -> string -> string.

  Theorem identity_rewriters_transparent : forall text groups,
    make_detail span group inner_spans last_span sub_default main_default splice
                (Some (fun d _ _ => d)) (Some (fun d _ => d)) text groups =
    make_detail span group inner_spans last_span sub_default main_default splice None None text groups.
  Proof. intros. reflexivity. Qed.

  Theorem identity_span_rewriter_transparent : forall r text groups,
    make_detail span group inner_spans last_span sub_default main_default splice (Some (fun d _ _ => d)) r text groups =
    make_detail span group inner_spans last_span sub_default main_default splice None r text groups.
  Proof. intros. reflexivity. Qed.
End RewriterProofs.

Lemma exec_custom_calls : forall hs c s,
  calls (exec_custom hs c s) = calls s ++ [{| hc_item := c_item c; hc_groups := c_groups c; hc_payload := c_payload c |}].
Proof.
  intros hs c s. unfold exec_custom.
  destruct (hs (c_item c) (c_groups c) (c_payload c) (vheap s)) as [[[h1 res] dt] e].
  destruct e; [reflexivity |]. destruct res as [a |]; [| reflexivity].
  destruct (read h1 a); [| reflexivity]. destruct (alloc h1 c0). reflexivity.
Qed.

(* as many handler invocations as typeCustomDice instructions evaluated; what each is called with
   is exec_custom_calls *)
Theorem handler_called_once_per_evaluation : forall hs code s,
  verr (exec_code hs code s) = None -> verr s = None ->
  List.length (calls (exec_code hs code s)) = (List.length (calls s) + count_custom code)%nat.
Proof.
  intros hs code. induction code as [| i code IH]; intros s He Hs; simpl in *.
  - lia.
  - destruct i as [c |].
    + destruct (verr (exec_custom hs c s)) eqn:E.
      * rewrite E in He. discriminate He.
      * rewrite IH; [| exact He | exact E]. rewrite exec_custom_calls, app_length. simpl. lia.
    + apply IH; assumption.
Qed.

(* the pushed value and the span's Ret are copies: a fresh cell, unaffected by later writes to the handler's object *)
Theorem handler_result_used_by_copy : forall hs c s h1 a dt content,
  hs (c_item c) (c_groups c) (c_payload c) (vheap s) = (h1, Some a, dt, None) ->
  heap_wf h1 -> read h1 a = Some content ->
  let s' := exec_custom hs c s in
  exists r, detail_ret s' = Some r /\ r <> a /\ read h1 r = None /\
            stack s' = content :: stack s /\
            forall c', read (write (vheap s') a c') r = Some content /\ stack s' = content :: stack s.
Proof.
  intros hs c s h1 a dt content Hh Wf Hr. unfold exec_custom. rewrite Hh, Hr. simpl.
  exists (next h1). assert (Ha : a < next h1) by (eapply Wf; eauto).
  repeat split.
  - lia.
  - destruct (read h1 (next h1)) eqn:E; [| reflexivity]. apply Wf in E. lia.
  - unfold read, write. simpl.
    assert (Hne : (a =? next h1) = false) by (apply N.eqb_neq; lia).
    rewrite Hne, N.eqb_refl. reflexivity.
Qed.

Lemma custom_detail_text : forall hs c s h1 a dt content,
  hs (c_item c) (c_groups c) (c_payload c) (vheap s) = (h1, Some a, dt, None) -> read h1 a = Some content ->
  detail_text (exec_custom hs c s) = match dt with EmptyString => c_text c | t => t end.
Proof. intros hs c s h1 a dt content Hh Hr. unfold exec_custom. rewrite Hh, Hr. reflexivity. Qed.

(* parser + VM: a match at the operand start reaches the handler exactly: groups and payload of the match *)
Theorem custom_protocol : forall m width s r hs vs,
  m (offset s) = Some r -> (0 < rm_len r)%Z ->
  boundary_from width (offset s) (offset s + Z.to_N (rm_len r)) ->
  let s3 := commit (consume m width (snd (prepare m s))) in
  exists c, emitted s3 = emitted s ++ [c] /\ offset s3 = offset s + Z.to_N (rm_len r) /\ pending s3 = None /\
            calls (exec_custom hs c vs) = calls vs ++ [{| hc_item := rm_item r; hc_groups := rm_groups r; hc_payload := rm_payload r |}].
Proof.
  intros m width s r hs vs Hm Hl Hb.
  destruct (protocol_on_match m width s r Hm Hl Hb) as [_ [Ho [He [Hp Ho3]]]].
  exists (compile r). repeat split; try assumption.
  - simpl in *. rewrite Ho3. exact Ho.
  - rewrite exec_custom_calls. reflexivity.
Qed.

Local Open Scope string_scope.

Definition ex_m (o : N) : option rawmatch :=
  if (o =? 4)%N then Some {| rm_item := 0; rm_groups := ["E12"; "12"]; rm_text := ""; rm_len := 3; rm_payload := 9 |} else None.
Definition ex_w (_ : N) : N := 1%N.

Example protocol_example :
  let s := {| pending := Some {| m_raw := {| rm_item := 5; rm_groups := ["old"]; rm_text := "old"; rm_len := 7; rm_payload := 1 |}; m_start := 1 |};
              offset := 4; emitted := [] |} in
  let s3 := prun ex_m ex_w [Prepare; Consume; Commit] s in
  offset s3 = 7%N /\ pending s3 = None /\
  emitted s3 = [{| c_item := 0; c_groups := ["E12"; "12"]; c_text := "E12"; c_payload := 9 |}].
Proof. vm_compute. repeat split; reflexivity. Qed.

(* a stale pending match (found at offset 4 by a look-ahead) is not used at offset 0 *)
Example stale_example :
  let s := {| pending := try_match ex_m 4; offset := 0; emitted := [] |} in
  consume ex_m ex_w s = {| pending := None; offset := 0; emitted := [] |}.
Proof. vm_compute. reflexivity. Qed.

Example inert_example :
  prun (fun _ => None) ex_w [Prepare; Consume; Commit; Consume; Prepare] pinit = pinit /\
  prepared (fun _ => None) ex_w [Prepare; Consume; Commit; Consume; Prepare] pinit = [false; false].
Proof. vm_compute. split; reflexivity. Qed.

(* without alignment the loop overshoots: the boundary premise of protocol_on_match is needed *)
Example overshoot_example :
  offset (consume ex_m (fun _ => 2%N) {| pending := None; offset := 4; emitted := [] |}) = 8%N.
Proof. vm_compute. reflexivity. Qed.

(* hooks: instance with numbers as values, 0 = null, values >= 100 are computed and evaluate to v - 100;
   200 fails *)
Definition ex_exec (v : N) (s : hst N unit) : hst N unit * option N :=
  if (v =? 200)%N then (set_err N unit s "boom", None) else (s, Some (v - 100)%N).
Definition ex_load (H : hooks N unit) (name : string) (wd : bool) (s : hst N unit) :=
  load_name N 0%N (fun v => (v =? 0)%N) (fun v => (100 <=? v)%N) N.eqb unit ex_exec (fun _ => None) H name false true wd s.
Definition ex_st : hst N unit :=
  {| chain := [[("x", 5%N)]; [("y", 107%N); ("z", 200%N)]]; gnames := []; err := None; dret := Some 3%N; wld := tt |}.

Example hooks_example :
  ex_load (id_hooks N unit) "y" true ex_st = (set_dret N unit ex_st (Some 7%N), OVal N 7%N) /\
  ex_load (no_hooks N unit) "y" true ex_st = (set_dret N unit ex_st (Some 7%N), OVal N 7%N) /\
  (* on a failing computed value the two differ in the dead Ret field only: `observe` is needed *)
  ex_load (id_hooks N unit) "z" true ex_st <> ex_load (no_hooks N unit) "z" true ex_st /\
  observe N unit (ex_load (id_hooks N unit) "z" true ex_st) = observe N unit (ex_load (no_hooks N unit) "z" true ex_st).
Proof. vm_compute. repeat split; try reflexivity. intros H; discriminate H. Qed.

(* a hook that does act is visible (the theorem is not true of arbitrary hooks) *)
Example acting_hook_visible :
  ex_load {| h_pre := Some (fun s n => (s, "x", None)); h_post := None; h_store := None; g_load := None; g_over := None; g_store := None |} "y" false ex_st
  <> ex_load (no_hooks N unit) "y" false ex_st.
Proof. vm_compute. intros H; discriminate H. Qed.

Example store_example :
  chain N unit (store_name N unit (id_hooks N unit) "x" 9%N true ex_st) = [[("x", 9%N)]; [("y", 107%N); ("z", 200%N)]].
Proof. vm_compute. reflexivity. Qed.

Example rewriters_example :
  make_detail N N (fun g => [g; (g + 1)%N]) (fun g => g) (fun t sp => if (sp =? 2)%N then "" else t ++ "s")
              (fun t g subs => "[" ++ String.concat "," subs ++ "]") (fun t g d => t ++ d)
              (Some (fun d _ _ => d)) (Some (fun d _ => d)) "T" [1%N; 2%N] = "T[Ts][T[Ts]s]".
Proof. vm_compute. reflexivity. Qed.

(* typeCustomDice: the handler returns the address of an object it keeps (cell 0 holds 24); afterwards it overwrites it *)
Definition ex_heap : heap := {| cells := [(0%N, 24%Z)]; next := 1 |}.
Definition ex_handler : handler_t := fun _ _ h => (h, Some 0%N, "", None).
Definition ex_vm : vmst := {| vheap := ex_heap; stack := []; detail_ret := None; detail_text := ""; calls := []; verr := None |}.
Definition ex_c : compiled := {| c_item := 0; c_groups := ["E12"; "12"]; c_text := "E12"; c_payload := 0 |}.

Example copy_example :
  let s' := exec_code (fun _ => ex_handler) [ICustom ex_c; IOther; ICustom ex_c] ex_vm in
  stack s' = [24%Z; 24%Z] /\ detail_ret s' = Some 2%N /\ detail_text s' = "E12" /\ List.length (calls s') = 2%nat /\
  read (write (vheap s') 0 (-999)%Z) 2 = Some 24%Z /\ read (write (vheap s') 0 (-999)%Z) 0 = Some (-999)%Z.
Proof. vm_compute. repeat split; reflexivity. Qed.

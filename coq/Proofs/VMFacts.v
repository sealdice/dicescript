(* Facts about Model/Value.v and Model/VM.v that do not depend on a pass.  What the later files build on: lengths as
   integers (zlen), what one pop keeps stackPopN keeps (Section PopN), the budget test of the op counter
   (ops_add_over), and the two operations that start a sub-VM, seen through the machine they start (ce_sub, fi_sub)
   and what becomes of its outcome (sub_outcome).  The rest characterises model functions for their own sake (index
   helpers, single pops and pushes, top = length live, the saturating add, `run` against `exec`) and ends with three
   runs of tiny programs. *)
From Coq Require Import String NArith ZArith List Bool Lia.
From DS Require Import Model.Str Model.PCG Model.Value Model.VM.
Import ListNotations.
Open Scope Z_scope.

Lemma run_deterministic : forall fuel E c src st o1 o2,
  run fuel E c src st = o1 -> run fuel E c src st = o2 -> o1 = o2.
Proof. intros; congruence. Qed.

Lemma exec_deterministic : forall fuel E m r1 r2, exec fuel E m = r1 -> exec fuel E m = r2 -> r1 = r2.
Proof. intros; congruence. Qed.

Lemma get_real_index_bounds : forall i len k, get_real_index i len = Some k -> 0 <= k < len.
Proof.
  unfold get_real_index; intros i len k.
  destruct (i <? 0); cbn zeta; (destruct (_ || _) eqn:H; [discriminate|]);
    apply orb_false_iff in H; destruct H as [H1 H2]; apply Z.leb_gt in H1; apply Z.ltb_ge in H2; intros [= <-]; lia.
Qed.

Lemma get_real_index_complete : forall i len, 0 <= i < len -> get_real_index i len = Some i.
Proof.
  unfold get_real_index; intros i len H.
  assert (E : i <? 0 = false) by (apply Z.ltb_ge; lia).
  rewrite E; cbv zeta; rewrite E.
  assert (E2 : len <=? i = false) by (apply Z.leb_gt; lia). rewrite E2. reflexivity.
Qed.

Lemma get_clamp_real_index_bounds : forall i len, 0 <= len -> 0 <= get_clamp_real_index i len <= len.
Proof.
  unfold get_clamp_real_index; intros i len H.
  destruct (i <? 0) eqn:Hi; cbn zeta.
  - destruct (len + i <? 0) eqn:H1.
    + destruct (len <? 0) eqn:H2; [apply Z.ltb_lt in H2; lia | lia].
    + apply Z.ltb_ge in H1. destruct (len <? len + i) eqn:H2; [lia|]. apply Z.ltb_ge in H2; lia.
  - apply Z.ltb_ge in Hi. replace (i <? 0) with false by (symmetry; apply Z.ltb_ge; lia).
    destruct (len <? i) eqn:H2; [lia|]. apply Z.ltb_ge in H2; lia.
Qed.

Lemma slice_bounds_ok : forall a b len a' b', 0 <= len -> slice_bounds a b len = (a', b') -> 0 <= a' <= b' /\ b' <= len.
Proof.
  unfold slice_bounds; intros a b len a' b' H.
  pose proof (get_clamp_real_index_bounds a len H). pose proof (get_clamp_real_index_bounds b len H).
  destruct (get_clamp_real_index b len <? get_clamp_real_index a len) eqn:E; intros [= <- <-].
  - lia.
  - apply Z.ltb_ge in E; lia.
Qed.

Definition stack_wf (fr : frame) : Prop := fr_top fr = zlen (fr_live fr).

Lemma new_frame_wf : forall c s, stack_wf (new_frame c s).
Proof. reflexivity. Qed.

Lemma zlen_nil : forall A, @zlen A [] = 0. Proof. reflexivity. Qed.
Lemma zlen_cons : forall A (x : A) l, zlen (x :: l) = zlen l + 1.
Proof. intros; unfold zlen; cbn [length]; lia. Qed.
Lemma zlen_app : forall A (l1 l2 : list A), zlen (l1 ++ l2) = zlen l1 + zlen l2.
Proof. intros; unfold zlen; rewrite app_length; lia. Qed.
Lemma zlen_nonneg : forall A (l : list A), 0 <= zlen l.
Proof. intros; unfold zlen; lia. Qed.

Lemma nth_error_mid : forall A (pre post : list A) x, nth_error (pre ++ x :: post) (Z.to_nat (zlen pre)) = Some x.
Proof.
  intros. unfold zlen. rewrite Nat2Z.id. rewrite nth_error_app2 by lia. rewrite Nat.sub_diag. reflexivity.
Qed.

Lemma zlen_repeat : forall A (x : A) n, zlen (repeat x n) = Z.of_nat n.
Proof. intros; unfold zlen; rewrite repeat_length; reflexivity. Qed.

Lemma pop_wf : forall fr v fr', stack_wf fr -> pop fr = (v, fr') -> stack_wf fr'.
Proof.
  unfold pop, stack_wf; intros fr v fr' H. destruct (fr_live fr) eqn:E.
  - intros [= <- <-]. unfold fr_set_stack, err_invalid, fr_set_err; destruct (fr_err fr); cbn [fr_top fr_live]; exact H.
  - intros [= <- <-]. unfold fr_set_stack; cbn [fr_top fr_live]. rewrite zlen_cons in H. lia.
Qed.

Lemma pop_nonempty : forall fr v l, fr_live fr = v :: l ->
  fst (pop fr) = v /\ fr_top (snd (pop fr)) = fr_top fr - 1 /\ fr_err (snd (pop fr)) = fr_err fr.
Proof. unfold pop; intros fr v l ->. cbn. auto. Qed.

(* stackPop on the empty stack: no panic; null, and an error is recorded (E3 unless one was there) *)
Lemma pop_empty : forall fr, fr_live fr = [] ->
  fst (pop fr) = VNull /\ fr_err (snd (pop fr)) <> None /\ fr_top (snd (pop fr)) = fr_top fr.
Proof.
  unfold pop, err_invalid; intros fr ->. cbn [fst snd]. split; [reflexivity|]. split.
  - destruct (fr_err fr) eqn:E; unfold fr_set_stack, fr_set_err; cbn [fr_err]; [rewrite E|]; discriminate.
  - destruct (fr_err fr); reflexivity.
Qed.

Lemma push_wf : forall v fr fr', stack_wf fr -> push v fr = Some fr' -> stack_wf fr' /\ fr_top fr' = fr_top fr + 1.
Proof.
  unfold push, stack_wf; intros v fr fr' H. destruct (stack_size <=? fr_top fr); [discriminate|].
  intros [= <-]; unfold fr_set_stack; cbn [fr_top fr_live]. rewrite zlen_cons. split; lia.
Qed.

(* stackPush never fails below the 1000-slot line (the loop head stops a run at top = 1000) *)
Lemma push_some : forall v fr, fr_top fr < stack_size -> exists fr', push v fr = Some fr'.
Proof.
  unfold push; intros v fr H. replace (stack_size <=? fr_top fr) with false by (symmetry; apply Z.leb_gt; lia).
  eexists; reflexivity.
Qed.

(* What one pop keeps, stackPopN keeps: n pops, then lastPop := a copy of the deepest value popped.
   P is the property of the frame, V what is known of every value popped. *)
Section PopN.
  Variables (P : frame -> Prop) (V : value -> Prop).
  Hypothesis P_pop : forall fr v fr1, P fr -> pop fr = (v, fr1) -> V v /\ P fr1.
  Hypothesis P_last : forall fr l, P fr -> Forall V l ->
    P (fr_set_stack fr (fr_live fr) (fr_dead fr) (fr_top fr) (match l with v :: _ => LVal v | [] => fr_last fr end)).

  Lemma pop_n_aux_keeps : forall n fr acc l fr1, P fr -> Forall V acc -> pop_n_aux n fr acc = (l, fr1) -> Forall V l /\ P fr1.
  Proof.
    induction n; intros fr acc l fr1 H Ha; cbn [pop_n_aux]; [intros [= <- <-]; auto|].
    destruct (pop fr) as [v fr0] eqn:Hp. destruct (P_pop _ _ _ H Hp) as [Hv H0]. apply IHn; [exact H0|constructor; assumption].
  Qed.

  Lemma pop_n_keeps : forall n fr l fr1, P fr -> pop_n n fr = (l, fr1) -> Forall V l /\ P fr1.
  Proof.
    unfold pop_n; intros n fr l fr1 H. destruct (n <=? 0); [intros [= <- <-]; auto|].
    destruct (pop_n_aux _ _ _) as [l1 fr0] eqn:Hp. destruct (pop_n_aux_keeps _ _ _ _ _ H (Forall_nil V) Hp) as [Hl H0].
    intros [= <- <-]. auto.
  Qed.
End PopN.

Lemma pop_n_wf : forall n fr l fr', stack_wf fr -> pop_n n fr = (l, fr') -> stack_wf fr'.
Proof.
  intros n fr l fr' H Hp. refine (proj2 (pop_n_keeps stack_wf (fun _ => True) _ _ n fr l fr' H Hp)).
  - intros fr0 v fr1 H0 Hp0. split; [exact Logic.I|exact (pop_wf _ _ _ H0 Hp0)].
  - intros fr0 l0 H0 _. exact H0.
Qed.

Lemma ops_add_mono : forall c ops count,
  0 <= ops <= MaxInt64 -> 0 <= count <= MaxInt64 -> ops <= fst (ops_add c ops count) <= MaxInt64.
Proof.
  unfold ops_add, MaxInt64, wrap64, two63, two64; intros c ops count H1 H2; cbn [fst].
  assert (E1 : (9223372036854775807 - ops + 9223372036854775808) mod 18446744073709551616 - 9223372036854775808
               = 9223372036854775807 - ops) by (rewrite Z.mod_small; lia).
  rewrite E1. destruct (9223372036854775807 - ops <? count) eqn:E.
  - lia.
  - apply Z.ltb_ge in E. rewrite Z.mod_small by lia. lia.
Qed.

Lemma ops_add_over : forall c ops count,
  snd (ops_add c ops count) = true <-> (0 < cfg_op_limit c /\ cfg_op_limit c < fst (ops_add c ops count)).
Proof.
  unfold ops_add; intros; cbn [fst snd]. rewrite andb_true_iff, !Z.ltb_lt. tauto.
Qed.

(* The two operations that start a sub-VM, through the machine they start (None: they return before)
   and what its finished run leaves *)
Definition ce_sub (E : env) (cid : N) (k : nat) (w : world) : option machine :=
  match nth_error (w_chain w) k with
  | None => None
  | Some t =>
    let '(mapid, h1) := cattrs_force cid (w_heap w) in
    let ops1 := wrap64 (c_ops t + 100) in
    let t1 := {| c_attrs := c_attrs t; c_ops := ops1 |} in
    if limit_hit E ops1 then None
    else match f_lookup (e_ftab E) cid with
         | None => None
         | Some d =>
           match f_code d with
           | None => None
           | Some c =>
             Some {| m_fr := new_frame c (Some (f_expr d));
                     m_w := w_set_chain (w_set_chain (w_set_heap w h1) (chain_put (firstn k (w_chain w)) t1 (skipn (S k) (w_chain w))))
                                        ({| c_attrs := mapid; c_ops := ops1 |} :: t1 :: skipn (S k) (w_chain w)) |}
           end
         end
  end.

Definition fi_sub (E : env) (fid : N) (args : list value) (w : world) : option machine :=
  match f_lookup (e_ftab E) fid, w_chain w with
  | Some d, self :: ups =>
    if negb (Nat.eqb (length (f_params d)) (length args)) then None
    else
      let '(mapid, h1) := alloc_map (bind_params (f_params d) args []) (w_heap w) in
      let ops1 := wrap64 (c_ops self + 100) in
      let self1 := {| c_attrs := c_attrs self; c_ops := ops1 |} in
      if limit_hit E ops1 then None
      else match f_code d with
           | None => None
           | Some c =>
             Some {| m_fr := new_frame c None;
                     m_w := w_set_chain (w_set_chain (w_set_heap w h1) (self1 :: ups))
                                        ({| c_attrs := mapid; c_ops := ops1 |} :: self1 :: ups) |}
           end
  | _, _ => None
  end.

Lemma ce_sub_Some : forall E cid k w sub, ce_sub E cid k w = Some sub ->
  exists d body ws, f_lookup (e_ftab E) cid = Some d /\ f_code d = Some body /\
    sub = {| m_fr := new_frame body (Some (f_expr d)); m_w := ws |} /\ w_heap ws = snd (cattrs_force cid (w_heap w)).
Proof.
  intros E cid k w sub. unfold ce_sub.
  destruct (nth_error (w_chain w) k) as [t|]; [|discriminate].
  destruct (cattrs_force cid (w_heap w)) as [mapid h1]. cbv zeta. destruct (limit_hit E _); [discriminate|].
  destruct (f_lookup (e_ftab E) cid) as [d|]; [|discriminate]. destruct (f_code d) as [body|] eqn:Hb; [|discriminate].
  intros [= <-]. exists d, body. eexists. repeat split. exact Hb.
Qed.

Lemma fi_sub_Some : forall E fid args w sub, fi_sub E fid args w = Some sub ->
  exists d body ws, f_lookup (e_ftab E) fid = Some d /\ f_code d = Some body /\
    sub = {| m_fr := new_frame body None; m_w := ws |} /\
    w_heap ws = snd (alloc_map (bind_params (f_params d) args []) (w_heap w)).
Proof.
  intros E fid args w sub. unfold fi_sub.
  destruct (f_lookup (e_ftab E) fid) as [d|]; [|discriminate].
  destruct (w_chain w) as [|self ups]; [discriminate|]. destruct (negb _); [discriminate|].
  destruct (alloc_map _ _) as [mapid h1] eqn:Ha. cbv zeta. destruct (limit_hit E _); [discriminate|].
  destruct (f_code d) as [body|] eqn:Hb; [|discriminate].
  intros [= <-]. exists d, body. eexists. rewrite Ha. repeat split. exact Hb.
Qed.

(* How the outcome of the sub-VM (if one is started: osub) becomes the operation's result r: the value and the world
   handed back come from the finished run, `put` saying where its counter goes in the chain; a panic is the sub-VM's. *)
Definition sub_outcome (call : machine -> result) (osub : option machine) (put : ctx -> ctx -> list ctx -> list ctx)
    (r : R value) : Prop :=
  match r with
  | ROk v w' => exists sub m' s' t' rest', osub = Some sub /\ call sub = Fin m' /\
      w_chain (m_w m') = s' :: t' :: rest' /\ v = match fr_live (m_fr m') with v :: _ => v | [] => VNull end /\
      w' = w_set_chain (m_w m') (put s' t' rest')
  | RPanic s => exists sub, osub = Some sub /\ call sub = Panic s
  | _ => True
  end.

Lemma computed_execute_inv : forall call E cid k w,
  sub_outcome call (ce_sub E cid k w)
    (fun s' t' rest' => chain_put (firstn k (w_chain w)) {| c_attrs := c_attrs t'; c_ops := c_ops s' |} rest')
    (computed_execute call E cid k w).
Proof.
  intros call E cid k w. unfold sub_outcome, computed_execute, ce_sub.
  destruct (nth_error (w_chain w) k) as [t|]; [|exact Logic.I].
  destruct (cattrs_force cid (w_heap w)) as [mapid h1]. cbv zeta. destruct (limit_hit E _); [exact Logic.I|].
  destruct (f_lookup (e_ftab E) cid) as [d|]; [|exact Logic.I]. destruct (f_code d); [|exact Logic.I].
  match goal with |- context [call ?s] => set (sub := s) end.
  destruct (call sub) as [m'|e m'|s| |] eqn:Hc; try exact Logic.I.
  - destruct (w_chain (m_w m')) as [|s' [|t' rest']] eqn:Hm; try exact Logic.I.
    exists sub, m', s', t', rest'. auto.
  - destruct (w_chain (m_w m')) as [|s' [|t' rest']]; exact Logic.I.
  - exists sub. auto.
Qed.

Lemma func_invoke_inv : forall call E fid args w,
  sub_outcome call (fi_sub E fid args w) (fun s' t' rest' => {| c_attrs := c_attrs t'; c_ops := c_ops s' |} :: rest')
    (func_invoke call E fid args w).
Proof.
  intros call E fid args w. unfold sub_outcome, func_invoke, fi_sub.
  destruct (f_lookup (e_ftab E) fid) as [d|]; [|exact Logic.I].
  destruct (w_chain w) as [|self ups]; [exact Logic.I|]. destruct (negb _); [exact Logic.I|].
  destruct (alloc_map _ _) as [mapid h1]. cbv zeta. destruct (limit_hit E _); [exact Logic.I|].
  destruct (f_code d); [|exact Logic.I].
  match goal with |- context [call ?s] => set (sub := s) end.
  destruct (call sub) as [m'|e m'|s| |] eqn:Hc; try exact Logic.I.
  - destruct (w_chain (m_w m')) as [|s' [|t' rest']] eqn:Hm; try exact Logic.I.
    exists sub, m', s', t', rest'. auto.
  - destruct (w_chain (m_w m')) as [|s' [|t' rest']]; exact Logic.I.
  - exists sub. auto.
Qed.

Lemma run_val_inv : forall fuel E c src st v st', run fuel E c src st = Val v st' ->
  exists m, exec fuel E {| m_fr := new_frame c (Some src);
                           m_w := {| w_heap := vs_heap st; w_pcg := vs_pcg st; w_st := [];
                                     w_chain := [{| c_attrs := vs_attrs st; c_ops := 0 |}] |} |} = Fin m
            /\ st' = state_of m.
Proof.
  unfold run; intros. destruct (exec _ _ _) eqn:E0; try discriminate.
  injection H as <- <-. eexists; split; reflexivity.
Qed.

Example run_example :
  exists st', run 100 {| e_ftab := []; e_cfg := {| cfg_ignore_div0 := false; cfg_min_mode := false; cfg_max_mode := false;
                                                  cfg_op_limit := 0; cfg_def_expr_empty := true; cfg_st_callback := false |} |}
                  [I OpPushInt (OInt 2); I OpPushInt (OInt 40); I OpAdd ONil; I OpHalt ONil] "2+40"
                  (init_vmstate {| hi := 1; lo := 2 |}) = Val (VInt 42) st' /\ vs_ops st' = 4.
Proof. eexists; split; vm_compute; reflexivity. Qed.

(* the empty-stack pop is an error (E3), counted once more at the next loop head *)
Example run_underflow_example :
  exists st', run 100 {| e_ftab := []; e_cfg := {| cfg_ignore_div0 := false; cfg_min_mode := false; cfg_max_mode := false;
                                       cfg_op_limit := 0; cfg_def_expr_empty := true; cfg_st_callback := false |} |}
      [I OpPop ONil; I OpHalt ONil] "" (init_vmstate {| hi := 1; lo := 2 |}) = Err EOther st' /\ vs_ops st' = 2.
Proof. eexists; split; vm_compute; reflexivity. Qed.

(* a Go panic that is still there: a jump before the start of the code *)
Example run_panic_example :
  run 100 {| e_ftab := []; e_cfg := {| cfg_ignore_div0 := false; cfg_min_mode := false; cfg_max_mode := false;
                                       cfg_op_limit := 0; cfg_def_expr_empty := true; cfg_st_callback := false |} |}
      [I OpJmp (OInt (-5)); I OpHalt ONil] "" (init_vmstate {| hi := 1; lo := 2 |}) = OPanic "code index negative".
Proof. vm_compute; reflexivity. Qed.

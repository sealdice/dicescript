(* Invariant of the interleaving model Model/ValueMapConc.v: the assertion of every thread at
   its program point, and what a step of one thread must guarantee (Rely) for the assertions of
   the others to survive it. *)
From stdpp Require Import gmap.
From Coq Require Import NArith Lia.
From DS Require Import Model.ValueMap Model.ValueMapConc Proofs.ValueMapConcLin.

Local Open Scope N_scope.

(* ghost: linearization state, key of every entry, owner of an orphaned entry *)
Record ghost := { g_l : lghost; g_ek : eid -> key; g_own : eid -> option nat }.

(* ever: is or once was in the read map (an expunged entry has left it for good);
   current s k e: e is the entry a Load of k reaches now;  held: e is allocated and k is its key
   (fixed at allocation, recorded in g_ek). *)
Definition inrd (s : shared) (e : eid) : Prop := exists k, s_rd s !! k = Some e.
Definition ever (s : shared) (e : eid) : Prop := inrd s e \/ s_cell s e = KExp.
Definition indirty (s : shared) (e : eid) : Prop :=
  exists d k, s_dirty s = Some d /\ d !! k = Some e.
Definition current (s : shared) (k : key) (e : eid) : Prop :=
  s_rd s !! k = Some e \/ (s_rd s !! k = None /\ s_am s = true /\ dget s k = Some e).
Definition held (s : shared) (ek : eid -> key) (k : key) (e : eid) : Prop :=
  ek e = k /\ e < s_nexte s.
Definition seenk (seen : list spec) (k : key) (r : option val) : Prop :=
  exists σ, σ ∈ seen /\ σ !! k = r.
(* what a thread that found e as the entry of k knows later on: e is still the current entry of
   k, or the thread has seen, since its invocation, both the present content of e's cell and
   "absent" as the value of k — so what it loads from the cell was the abstract answer at some
   moment of the operation *)
Definition SN (s : shared) (seen : list spec) (k : key) (e : eid) : Prop :=
  current s k e \/ (seenk seen k (kload (s_cell s e)) /\ seenk seen k None).

Definition abs_lookup (s : shared) (k : key) : option val :=
  match s_rd s !! k with
  | Some e => kload (s_cell s e)
  | None => if s_am s then match dget s k with Some e => kload (s_cell s e) | None => None end
            else None
  end.

Record WF (s : shared) (ek : eid -> key) (own : eid -> option nat) : Prop := {
  w_am : s_am s = true -> is_Some (s_dirty s);
  w_rd : forall k e, s_rd s !! k = Some e -> held s ek k e;
  w_d : forall d k e, s_dirty s = Some d -> d !! k = Some e -> held s ek k e /\ s_cell s e <> KExp;
  w_rd_d : forall d k e, s_dirty s = Some d -> s_rd s !! k = Some e -> s_cell s e <> KExp ->
           d !! k = Some e;
  w_exp : forall k e, s_rd s !! k = Some e -> s_cell s e = KExp ->
          exists d, s_dirty s = Some d /\ d !! k = None;
  w_clean : forall d k e, s_am s = false -> s_dirty s = Some d -> d !! k = Some e ->
            s_rd s !! k = Some e;
  w_own : forall e t, own e = Some t -> ~ ever s e /\ ~ indirty s e /\ e < s_nexte s;
}.

Definition holds_lock (p : pc) : bool :=
  match p with
  | PUnlock _ | PLoadLocked _ | PStoreLocked _ _ | PDelLocked _ | PLosLocked _ _ => true
  | _ => false
  end.

Definition status (g : ghost) (t : nat) := g_th (g_l g) !! t.

Fixpoint TI (s : shared) (g : ghost) (t : nat) (p : pc) : Prop :=
  match p with
  | PIdle => status g t = None
  | PRet r => status g t = Some (GLin r)
  | PUnlock next =>
    match next with
    | PRet _ | PLoadE _ _ | PDelE _ _ => TI s g t next
    | _ => False
    end
  | PLoad0 k | PLoadLock k | PLoadLocked k => exists seen, status g t = Some (GInv (CLoad k) seen)
  | PLoadE k e => exists seen, status g t = Some (GInv (CLoad k) seen) /\
                  held s (g_ek g) k e /\ SN s seen k e
  | PStore0 k v | PStoreLock k v | PStoreLocked k v =>
    exists seen, status g t = Some (GInv (CStore k v) seen)
  | PStoreTry k v e => exists seen, status g t = Some (GInv (CStore k v) seen) /\
                  held s (g_ek g) k e /\ ever s e
  | PStoreCas k v e c => exists seen, status g t = Some (GInv (CStore k v) seen) /\
                  held s (g_ek g) k e /\ ever s e /\ c <> KExp
  | PDel0 k | PDelLock k | PDelLocked k =>
    exists seen, status g t = Some (GInv (CLoadAndDelete k) seen)
  | PDelE k e =>
    held s (g_ek g) k e /\
    ((exists seen, status g t = Some (GInv (CLoadAndDelete k) seen) /\ ever s e /\ SN s seen k e) \/
     (status g t = Some (GLin (ROpt (kload (s_cell s e)))) /\ g_own g e = Some t))
  | PDelCas k e c =>
    held s (g_ek g) k e /\ is_val c = true /\
    ((exists seen, status g t = Some (GInv (CLoadAndDelete k) seen) /\ ever s e /\ SN s seen k e) \/
     (status g t = Some (GLin (ROpt (kload (s_cell s e)))) /\ g_own g e = Some t /\ c = s_cell s e))
  | PLos0 k v | PLosLock k v | PLosLocked k v =>
    exists seen, status g t = Some (GInv (CLoadOrStore k v) seen)
  | PLosE k v e | PLosCas k v e =>
    exists seen, status g t = Some (GInv (CLoadOrStore k v) seen) /\
                  held s (g_ek g) k e /\ ever s e
  end.

Record Inv (c : conf) (g : ghost) : Prop := {
  i_wf : WF (c_sh c) (g_ek g) (g_own g);
  i_abs : forall k, g_abs (g_l g) !! k = abs_lookup (c_sh c) k;
  i_cur : forall t o seen, status g t = Some (GInv o seen) -> g_abs (g_l g) ∈ seen;
  i_thr : forall t ts, c_thr c !! t = Some ts -> TI (c_sh c) g t (t_pc ts);
  i_nothr : forall t, c_thr c !! t = None -> status g t = None;
  i_lock : forall t ts, c_thr c !! t = Some ts ->
           (holds_lock (t_pc ts) = true <-> s_lock (c_sh c) = Some t);
}.

(* the assertion at PUnlock n is that of n, which is not a PUnlock: what carries assertions over
   at every other program point carries them over there too *)
Lemma TI_lift s g s' g' t :
  (forall p, (match p with PUnlock _ => False | _ => True end) -> TI s g t p -> TI s' g' t p) ->
  forall p, TI s g t p -> TI s' g' t p.
Proof.
  intros Hb p. destruct p; try (apply Hb; done). simpl. destruct p; try done; apply Hb; done.
Qed.

Lemma TI_ghost_ext s g g' t p :
  status g' t = status g t -> g_ek g' = g_ek g -> g_own g' = g_own g ->
  TI s g t p -> TI s g' t p.
Proof.
  intros Hs Hek Hown. apply TI_lift. intros q Hq.
  destruct q; simpl; rewrite ?Hs, ?Hek, ?Hown; done.
Qed.

Record Rely (t : nat) (s : shared) (g : ghost) (s' : shared) (g' : ghost) : Prop := {
  y_nexte : s_nexte s <= s_nexte s';
  y_ek : forall e, e < s_nexte s -> g_ek g' e = g_ek g e;
  y_own : forall e t', g_own g e = Some t' -> t' <> t -> g_own g' e = Some t';
  y_ever : forall e, e < s_nexte s -> ever s e -> ever s' e;
  y_frozen : forall e t', g_own g e = Some t' -> t' <> t -> s_cell s' e = s_cell s e;
  (* an entry another thread may remember for k: it is the current entry of k afterwards;
     or its cell now holds what the map had for k before, and k is absent before or after;
     or it was not current, and its cell is left alone or emptied *)
  y_sn : forall k e, held s (g_ek g) k e ->
     current s' k e \/
     (kload (s_cell s' e) = abs_lookup s k /\ (abs_lookup s k = None \/ abs_lookup s' k = None)) \/
     (~ current s k e /\ (s_cell s' e = s_cell s e \/ kload (s_cell s' e) = None));
}.

Definition status_mono (g g' : ghost) (t' : nat) : Prop :=
  status g' t' = status g t' \/
  exists o seen, status g t' = Some (GInv o seen) /\
                 status g' t' = Some (GInv o (g_abs (g_l g') :: seen)).

Lemma held_mono t s g s' g' k e :
  Rely t s g s' g' -> held s (g_ek g) k e -> held s' (g_ek g') k e.
Proof.
  intros Hy [Hk Hlt]. split; [by rewrite (y_ek _ _ _ _ _ Hy)|].
  pose proof (y_nexte _ _ _ _ _ Hy). lia.
Qed.

Lemma SN_step t s g s' g' k e seen seen' :
  Rely t s g s' g' -> held s (g_ek g) k e ->
  (forall k, g_abs (g_l g) !! k = abs_lookup s k) ->
  (forall k, g_abs (g_l g') !! k = abs_lookup s' k) ->
  seen ⊆ seen' -> g_abs (g_l g) ∈ seen -> g_abs (g_l g') ∈ seen' ->
  SN s seen k e -> SN s' seen' k e.
Proof.
  intros Hy Hh Ha Ha' Hsub Hin Hin' Hsn.
  assert (seenk seen' k (abs_lookup s k)) as Hpre.
  { exists (g_abs (g_l g)). split; [by apply Hsub|apply Ha]. }
  assert (seenk seen' k (abs_lookup s' k)) as Hpost.
  { exists (g_abs (g_l g')). split; [done|apply Ha']. }
  destruct (y_sn _ _ _ _ _ Hy k e Hh) as [Hc|[(Hv & Hn)|(Hnc & Hv)]].
  - by left.
  - right. rewrite Hv. split; [done|]. destruct Hn as [<- | <-]; done.
  - destruct Hsn as [Hc|[H1 H2]]; [done|]. right.
    assert (forall r, seenk seen k r -> seenk seen' k r) as Hmono.
    { intros r (σ & Hσ & Hl). exists σ. split; [by apply Hsub|done]. }
    destruct Hv as [-> | ->]; split; by apply Hmono.
Qed.

Lemma status_mono_inv g g' t' o seen :
  status_mono g g' t' -> status g t' = Some (GInv o seen) ->
  exists seen', status g' t' = Some (GInv o seen') /\ seen ⊆ seen'.
Proof.
  intros [He|(o1 & seen1 & H1 & H2)] Hs.
  - exists seen. by rewrite He.
  - rewrite Hs in H1. inversion H1; subst. eexists. split; [done|]. set_solver.
Qed.
Lemma status_mono_keep g g' t' :
  status_mono g g' t' -> (forall o seen, status g t' <> Some (GInv o seen)) ->
  status g' t' = status g t'.
Proof. intros [He|(o & seen & H1 & _)] Hn; [done|]. by destruct (Hn _ _ H1). Qed.

Section stable.
  Context (t t' : nat) (s s' : shared) (g g' : ghost).
  Hypothesis Hy : Rely t s g s' g'.
  Hypothesis Ha : forall k, g_abs (g_l g) !! k = abs_lookup s k.
  Hypothesis Ha' : forall k, g_abs (g_l g') !! k = abs_lookup s' k.
  Hypothesis Hcur : forall o seen, status g t' = Some (GInv o seen) -> g_abs (g_l g) ∈ seen.
  Hypothesis Hcur' : forall o seen, status g' t' = Some (GInv o seen) -> g_abs (g_l g') ∈ seen.
  Hypothesis Hst : status_mono g g' t'.
  Hypothesis Hne : t' <> t.

  Lemma status_stable o seen :
    status g t' = Some (GInv o seen) ->
    exists seen', status g' t' = Some (GInv o seen') /\
      forall k e, held s (g_ek g) k e -> SN s seen k e -> SN s' seen' k e.
  Proof.
    intros Hs. destruct (status_mono_inv _ _ _ _ _ Hst Hs) as (seen' & Hs' & Hsub).
    exists seen'. split; [done|]. intros k e Hh. eapply SN_step; eauto.
  Qed.

  Lemma op_stable o :
    (exists seen, status g t' = Some (GInv o seen)) -> exists seen, status g' t' = Some (GInv o seen).
  Proof. intros (seen & Hs). destruct (status_stable _ _ Hs) as (seen' & Hs' & _). eauto. Qed.

  Lemma entry_stable k e :
    held s (g_ek g) k e -> ever s e -> held s' (g_ek g') k e /\ ever s' e.
  Proof. intros Hh He. split; [by eapply held_mono|]. eapply y_ever; [done|apply Hh|done]. Qed.

  Lemma TI_stable p : TI s g t' p -> TI s' g' t' p.
  Proof.
    revert p. apply TI_lift. intros p Hp Hti.
    destruct p; simpl in *; try done; try (by apply op_stable).
    (* left: PIdle, PRet, and the program points that remember an entry *)
    - rewrite (status_mono_keep _ _ _ Hst); [done|by rewrite Hti].
    - rewrite (status_mono_keep _ _ _ Hst); [done|by rewrite Hti].
    - destruct Hti as (seen & Hs & Hh & Hsn). destruct (status_stable _ _ Hs) as (seen' & Hs' & Hsn').
      exists seen'. split; [done|]. split; [by eapply held_mono|by apply Hsn'].
    - destruct Hti as (seen & Hs & Hh & He). destruct (status_stable _ _ Hs) as (seen' & Hs' & _).
      exists seen'. split; [done|]. by apply entry_stable.
    - destruct Hti as (seen & Hs & Hh & He & Hc). destruct (status_stable _ _ Hs) as (seen' & Hs' & _).
      destruct (entry_stable _ _ Hh He). by exists seen'.
    - destruct Hti as (Hh & [(seen & Hs & He & Hsn)|(Hs & Ho)]).
      + destruct (status_stable _ _ Hs) as (seen' & Hs' & Hsn'). destruct (entry_stable _ _ Hh He).
        split; [done|]. left. exists seen'. split; [done|]. split; [done|by apply Hsn'].
      + split; [by eapply held_mono|]. right.
        rewrite (y_frozen _ _ _ _ _ Hy _ _ Ho Hne). split; [rewrite (status_mono_keep _ _ _ Hst); [done|by rewrite Hs]|].
        by eapply y_own.
    - destruct Hti as (Hh & Hv & [(seen & Hs & He & Hsn)|(Hs & Ho & Hc)]).
      + destruct (status_stable _ _ Hs) as (seen' & Hs' & Hsn'). destruct (entry_stable _ _ Hh He).
        split; [done|]. split; [done|]. left. exists seen'. split; [done|]. split; [done|by apply Hsn'].
      + split; [by eapply held_mono|]. split; [done|]. right.
        rewrite (y_frozen _ _ _ _ _ Hy _ _ Ho Hne). split; [rewrite (status_mono_keep _ _ _ Hst); [done|by rewrite Hs]|].
        split; [by eapply y_own|done].
    - destruct Hti as (seen & Hs & Hh & He). destruct (status_stable _ _ Hs) as (seen' & Hs' & _).
      exists seen'. split; [done|]. by apply entry_stable.
    - destruct Hti as (seen & Hs & Hh & He). destruct (status_stable _ _ Hs) as (seen' & Hs' & _).
      exists seen'. split; [done|]. by apply entry_stable.
  Qed.
End stable.

Lemma lg_step_mono l t a t' :
  t' <> t ->
  g_th (lg_step l t a) !! t' = g_th l !! t' \/
  exists o seen, g_th l !! t' = Some (GInv o seen) /\
                 g_th (lg_step l t a) !! t' = Some (GInv o (g_abs (lg_step l t a) :: seen)).
Proof.
  intros Hne. destruct a; simpl.
  - by left.
  - left. by rewrite lookup_insert_ne.
  - left. by rewrite lookup_delete_ne.
  - destruct (g_th l !! t) as [[o seen0|r0]|] eqn:Ht; try by left.
    destruct (spec_step (g_abs l) (vop_of o)) as [s' r]. simpl.
    rewrite lookup_insert_ne, lookup_fmap by done.
    destruct (g_th l !! t') as [[o1 seen1|r1]|]; simpl; eauto.
  - destruct (g_th l !! t) as [[o seen0|r0]|] eqn:Ht; try by left.
    simpl. left. by rewrite lookup_insert_ne.
Qed.

Lemma lg_step_cur l t a :
  (forall t' o seen, g_th l !! t' = Some (GInv o seen) -> g_abs l ∈ seen) ->
  forall t' o seen, g_th (lg_step l t a) !! t' = Some (GInv o seen) ->
                    g_abs (lg_step l t a) ∈ seen.
Proof.
  intros Hc t' o seen. destruct a; simpl.
  - apply Hc.
  - destruct (decide (t' = t)) as [->|Hne].
    + rewrite lookup_insert. intros [= <- <-]. set_solver.
    + rewrite lookup_insert_ne by done. apply Hc.
  - destruct (decide (t' = t)) as [->|Hne]; [by rewrite lookup_delete|].
    rewrite lookup_delete_ne by done. apply Hc.
  - destruct (g_th l !! t) as [[o0 seen0|r0]|] eqn:Ht; try apply Hc.
    destruct (spec_step (g_abs l) (vop_of o0)) as [s' r]. simpl.
    destruct (decide (t' = t)) as [->|Hne]; [by rewrite lookup_insert|].
    rewrite lookup_insert_ne, lookup_fmap by done.
    destruct (g_th l !! t') as [[o1 seen1|r1]|]; simpl; try done.
    intros [= <- <-]. set_solver.
  - destruct (g_th l !! t) as [[o0 seen0|r0]|] eqn:Ht; try apply Hc.
    simpl. destruct (decide (t' = t)) as [->|Hne]; [by rewrite lookup_insert|].
    rewrite lookup_insert_ne by done. apply Hc.
Qed.

(* the invariant as seen by the stepping thread t: everything but t's own assertion.
   It is re-established after every micro-step (primitive) of a transition. *)
Record OInv (t : nat) (s : shared) (thr : gmap nat tstate) (g : ghost) : Prop := {
  o_wf : WF s (g_ek g) (g_own g);
  o_abs : forall k, g_abs (g_l g) !! k = abs_lookup s k;
  o_cur : forall t' o seen, status g t' = Some (GInv o seen) -> g_abs (g_l g) ∈ seen;
  o_thr : forall t' ts, t' <> t -> thr !! t' = Some ts -> TI s g t' (t_pc ts);
  o_nothr : forall t', t' <> t -> thr !! t' = None -> status g t' = None;
  o_lock : forall t' ts, t' <> t -> thr !! t' = Some ts ->
           (holds_lock (t_pc ts) = true <-> s_lock s = Some t');
}.

Lemma Inv_OInv c g t : Inv c g -> OInv t (c_sh c) (c_thr c) g.
Proof.
  intros Hi. split.
  - apply (i_wf _ _ Hi).
  - apply (i_abs _ _ Hi).
  - apply (i_cur _ _ Hi).
  - intros t' ts _. apply (i_thr _ _ Hi).
  - intros t' _. apply (i_nothr _ _ Hi).
  - intros t' ts _. apply (i_lock _ _ Hi).
Qed.

Lemma OInv_step t s thr g s' g' a :
  OInv t s thr g ->
  g_l g' = lg_step (g_l g) t a ->
  WF s' (g_ek g') (g_own g') ->
  (forall k, g_abs (g_l g') !! k = abs_lookup s' k) ->
  Rely t s g s' g' ->
  (forall t', t' <> t -> s_lock s' = Some t' <-> s_lock s = Some t') ->
  OInv t s' thr g'.
Proof.
  intros Hi Hl Hwf Habs Hy Hlk'.
  assert (forall t', t' <> t -> status_mono g g' t') as Hmono.
  { intros t' Hne. unfold status_mono, status. rewrite Hl. by apply lg_step_mono. }
  assert (forall t' o seen, status g' t' = Some (GInv o seen) -> g_abs (g_l g') ∈ seen) as Hcur'.
  { unfold status. rewrite Hl. apply lg_step_cur. apply (o_cur _ _ _ _ Hi). }
  split; try done.
  - intros t' ts' Hne Ht'.
    eapply (TI_stable t t' s s' g g'); eauto.
    + apply (o_abs _ _ _ _ Hi).
    + apply (o_cur _ _ _ _ Hi).
    + by apply (o_thr _ _ _ _ Hi).
  - intros t' Hne Ht'. pose proof (o_nothr _ _ _ _ Hi t' Hne Ht') as Hn.
    rewrite (status_mono_keep _ _ _ (Hmono t' Hne)); [done|by rewrite Hn].
  - intros t' ts' Hne Ht'. rewrite (Hlk' _ Hne). by apply (o_lock _ _ _ _ Hi).
Qed.

Lemma OInv_Inv t s thr g p' todo' hist' :
  OInv t s thr g -> TI s g t p' ->
  (holds_lock p' = true <-> s_lock s = Some t) ->
  Inv {| c_sh := s; c_thr := <[t := {| t_pc := p'; t_todo := todo' |}]> thr; c_hist := hist' |} g.
Proof.
  intros Ho Hti Hlk. split; simpl.
  - apply (o_wf _ _ _ _ Ho).
  - apply (o_abs _ _ _ _ Ho).
  - apply (o_cur _ _ _ _ Ho).
  - intros t' ts'. destruct (decide (t' = t)) as [->|Hne].
    + rewrite lookup_insert. by intros [= <-].
    + rewrite lookup_insert_ne by done. by apply (o_thr _ _ _ _ Ho).
  - intros t'. destruct (decide (t' = t)) as [->|Hne]; [by rewrite lookup_insert|].
    rewrite lookup_insert_ne by done. by apply (o_nothr _ _ _ _ Ho).
  - intros t' ts'. destruct (decide (t' = t)) as [->|Hne].
    + rewrite lookup_insert. by intros [= <-].
    + rewrite lookup_insert_ne by done. by apply (o_lock _ _ _ _ Ho).
Qed.

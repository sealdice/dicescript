(* Proofs about Model/Detail.v: no panic, shape of the process text (forward splice), stripping the
   annotations, purity/idempotence of GetDetailText, and the printer -> evaluator round trip
   (the stripped text of a fragment expression evaluates to its value). *)
From Coq Require Import String Ascii NArith ZArith List Bool Lia Arith Sorted.
From Coq Require Decimal DecimalString DecimalPos.
From DS Require Import Model.Str Model.Detail Proofs.StrFacts.
Import ListNotations.
Open Scope string_scope.

Lemma stake_sdrop n s : stake n s ++ sdrop n s = s.
Proof. revert s; induction n; intros [|c r]; cbn; try reflexivity. now rewrite IHn. Qed.
Lemma slen_stake n s : n <= String.length s -> String.length (stake n s) = n.
Proof. revert s; induction n; intros [|c r]; cbn; intros; try lia. rewrite IHn; lia. Qed.
Lemma slen_sdrop n s : String.length (sdrop n s) = String.length s - n.
Proof. revert s; induction n; intros [|c r]; cbn; try lia. apply IHn. Qed.
Lemma stake_app_exact a b : stake (String.length a) (a ++ b) = a.
Proof. induction a; cbn; [destruct b; reflexivity| congruence]. Qed.
Lemma sdrop_app_exact a b : sdrop (String.length a) (a ++ b) = b.
Proof. induction a; cbn; auto. Qed.
Lemma stake_stake n m s : n <= m -> stake n (stake m s) = stake n s.
Proof.
  revert m s; induction n; intros m s H; [destruct (stake m s); reflexivity|].
  destruct m; [lia|]. destruct s; cbn; [reflexivity|]. rewrite IHn; [reflexivity|lia].
Qed.
Lemma sdrop_sdrop n m s : sdrop n (sdrop m s) = sdrop (m + n) s.
Proof.
  revert s; induction m; intros s; cbn; [reflexivity|].
  destruct s; [destruct n; reflexivity|]. apply IHm.
Qed.
Lemma sdrop_stake n m s : sdrop n (stake m s) = stake (m - n) (sdrop n s).
Proof.
  revert m s; induction n; intros m s; cbn.
  - now rewrite Nat.sub_0_r.
  - destruct m; cbn; [destruct (sdrop (S n) s); destruct s; reflexivity|].
    destruct s; cbn; [destruct (m - n); reflexivity|]. apply IHn.
Qed.
Lemma stake_all n s : String.length s <= n -> stake n s = s.
Proof. revert s; induction n; intros [|c r]; cbn; intros; try reflexivity; try lia. rewrite IHn; [reflexivity|lia]. Qed.

Lemma sdrop_split s p q : p <= q -> sdrop p s = ssub s p q ++ sdrop q s.
Proof.
  intros H. unfold ssub. replace q with (p + (q - p)) at 2 by lia.
  rewrite <- sdrop_sdrop. now rewrite stake_sdrop.
Qed.
Lemma ssub_split s p q b : p <= q -> q <= b -> ssub s p b = ssub s p q ++ ssub s q b.
Proof.
  intros H1 H2. unfold ssub.
  replace (stake (q - p) (sdrop p s)) with (stake (q - p) (stake (b - p) (sdrop p s))) by (apply stake_stake; lia).
  replace (stake (b - q) (sdrop q s)) with (sdrop (q - p) (stake (b - p) (sdrop p s))).
  - now rewrite stake_sdrop.
  - rewrite sdrop_stake, sdrop_sdrop. f_equal; [lia|f_equal; lia].
Qed.
Lemma ssub_0 s q : ssub s 0 q = stake q s.
Proof. unfold ssub. cbn. now rewrite Nat.sub_0_r. Qed.
Lemma ssub_stake s q b e : e <= q -> ssub (stake q s) b e = ssub s b e.
Proof.
  intros H. unfold ssub. rewrite sdrop_stake. apply stake_stake. lia.
Qed.
Lemma ssub_agree s t q b e : stake q s = stake q t -> e <= q -> ssub s b e = ssub t b e.
Proof. intros E H. rewrite <- (ssub_stake s q b e H), <- (ssub_stake t q b e H). now rewrite E. Qed.
Lemma stake_len_ge s t q : stake q s = stake q t -> q <= String.length t -> q <= String.length s.
Proof.
  intros E H. assert (L : String.length (stake q s) = q) by (rewrite E; apply slen_stake; exact H).
  clear E. revert s L. induction q; intros s L; [lia|].
  destruct s; cbn in L; [discriminate|]. cbn. apply le_n_S. apply IHq; [lia|]. lia.
Qed.

(* a replacement (b, e, r): bytes [b, e) of the source become r. *)
Definition repl : Type := (nat * nat * string)%type.
Fixpoint ranges_ok (len p : nat) (l : list repl) : Prop :=
  match l with
  | [] => p <= len
  | (b, e, _) :: l' => p <= b /\ b <= e /\ ranges_ok len e l'
  end.
Definition first_b (len : nat) (l : list repl) : nat :=
  match l with [] => len | (b, _, _) :: _ => b end.

Lemma ranges_ok_le len p l : ranges_ok len p l -> p <= first_b len l /\ first_b len l <= len.
Proof.
  revert p; induction l as [|[[b e] r] l IH]; cbn; intros p H; [lia|].
  destruct H as (H1 & H2 & H3). apply IH in H3. cbn in *. destruct l as [|[[b' e'] r'] l']; cbn in *; lia.
Qed.

Lemma splice_shift src p q l :
  p <= q -> q <= first_b (String.length src) l -> splice src p l = ssub src p q ++ splice src q l.
Proof.
  intros H1 H2. destruct l as [|[[b e] r] l']; cbn in *.
  - apply sdrop_split; exact H1.
  - rewrite (ssub_split src p q b) by lia. now rewrite sapp_assoc.
Qed.

Lemma splice_prefix src q l :
  q <= first_b (String.length src) l -> first_b (String.length src) l <= String.length src ->
  stake q (splice src 0 l) = stake q src /\ sdrop q (splice src 0 l) = splice src q l.
Proof.
  intros H1 H2. rewrite (splice_shift src 0 q l) by lia. rewrite ssub_0.
  assert (L : String.length (stake q src) = q) by (apply slen_stake; lia).
  split.
  - rewrite <- L at 1. apply stake_app_exact.
  - rewrite <- L at 1. apply sdrop_app_exact.
Qed.

Lemma insert_end_Forall (P : span -> Prop) x l : P x -> Forall P l -> Forall P (insert_end x l).
Proof.
  intros Hx H. induction H; cbn; [constructor; auto|].
  destruct (sp_e x <=? sp_e x0)%Z; constructor; auto.
Qed.
Lemma sort_end_Forall (P : span -> Prop) l : Forall P l -> Forall P (sort_end l).
Proof. induction 1; cbn; [constructor|]. apply insert_end_Forall; auto. Qed.
Lemma insert_end_length x l : length (insert_end x l) = S (length l).
Proof. induction l; cbn; [reflexivity|]. destruct (sp_e x <=? sp_e a)%Z; cbn; congruence. Qed.
Lemma sort_end_length l : length (sort_end l) = length l.
Proof. induction l; cbn; [reflexivity|]. rewrite insert_end_length. congruence. Qed.
Lemma removelast_Forall {A} (P : A -> Prop) l : Forall P l -> Forall P (removelast l).
Proof. induction 1; cbn; [constructor|]. destruct l; [constructor|]. constructor; auto. Qed.
Lemma last_Forall {A} (P : A -> Prop) l d : Forall P l -> l <> [] -> P (last l d).
Proof.
  induction 1; intros Hn; [congruence|]. destruct l; cbn; [exact H|]. apply IHForall. discriminate.
Qed.

Section Groups.
  Variable offset : Z.

  Definition span_in (hi : Z) (s : span) : Prop := (0 <= sp_b s /\ sp_b s <= sp_e s /\ sp_e s <= hi)%Z.
  Definition group_ok (g : group) : Prop :=
    g_spans g <> [] /\ (0 <= g_b g /\ g_b g <= g_e g /\ g_e g <= offset)%Z /\ Forall (span_in (g_e g)) (g_spans g) /\
    (* the group starts where its first span starts and ends at the largest End of its spans *)
    g_b g = sp_b (hd dummy_span (g_spans g)) /\ g_tag g = sp_tag (hd dummy_span (g_spans g)) /\
    Exists (fun s => sp_e s = g_e g) (g_spans g).

  (* reversed list: the head is the latest group *)
  Fixpoint sep_chain (m : list group) : Prop :=
    match m with
    | g :: (g' :: _) as r => (g_e g' < g_b g)%Z /\ sep_chain r
    | _ => True
    end.
  Definition last_end_of (m : list group) : Z := match m with [] => (-1)%Z | g :: _ => g_e g end.

  Lemma span_in_mono hi hi' s : (hi <= hi')%Z -> span_in hi s -> span_in hi' s.
  Proof. unfold span_in; lia. Qed.

  Lemma concat_rev_cons (g : group) m :
    concat (map g_spans (rev (g :: m))) = (concat (map g_spans (rev m)) ++ g_spans g)%list.
  Proof. cbn [rev]. rewrite map_app, concat_app. cbn [map concat]. rewrite app_nil_r. reflexivity. Qed.

  Lemma build_groups_inv l : forall m pre,
    Forall group_ok m -> sep_chain m -> concat (map g_spans (rev m)) = pre ->
    exists m', build_groups offset l (last_end_of m) m = GOk m' /\ Forall group_ok m' /\ sep_chain m' /\
      concat (map g_spans (rev m')) = (pre ++ filter (fun s => negb (span_skipped offset s)) l)%list.
  Proof.
    induction l as [|i r IH]; intros m pre Hok Hsep Hpre; cbn [build_groups filter].
    - exists m. rewrite app_nil_r. auto.
    - destruct (span_skipped offset i) eqn:Esk; cbn [negb]; [apply IH; assumption|].
      (* either way the span i is appended to the groups *)
      replace (pre ++ i :: filter (fun s => negb (span_skipped offset s)) r)%list
        with ((pre ++ [i]) ++ filter (fun s => negb (span_skipped offset s)) r)%list
        by (rewrite <- app_assoc; reflexivity).
      unfold span_skipped in Esk.
      assert (Hi : (0 <= sp_b i /\ sp_b i <= sp_e i /\ sp_e i <= offset)%Z) by lia. clear Esk.
      destruct (last_end_of m <? sp_b i)%Z eqn:Enew.
      +
        assert (E : (if (last_end_of m <? sp_e i)%Z then sp_e i else last_end_of m) = sp_e i).
        { destruct (last_end_of m <? sp_e i)%Z eqn:E1; [reflexivity|lia]. }
        rewrite E.
        change (sp_e i) with (last_end_of (mkGroup (sp_b i) (sp_e i) (sp_tag i) [i] :: m)) at 1.
        apply IH; [| |rewrite concat_rev_cons, Hpre; reflexivity].
        * constructor; [|exact Hok]. unfold group_ok; cbn. split; [discriminate|]. split; [lia|].
          split; [constructor; [unfold span_in; lia|constructor]|].
          split; [reflexivity|]. split; [reflexivity|]. constructor. reflexivity.
        * destruct m as [|g m0]; cbn; [exact I|]. cbn in Enew. split; [lia|exact Hsep].
      +
        destruct m as [|g m0]; [cbn in Enew; lia|]. cbn [last_end_of] in *.
        set (e' := if (g_e g <? sp_e i)%Z then sp_e i else g_e g).
        change e' with (last_end_of (mkGroup (g_b g) e' (g_tag g) (g_spans g ++ [i]) :: m0)) at 1.
        inversion Hok as [|? ? Hg Hm0]; subst.
        destruct Hg as (Hne & Hb & Hsp & Hhd & Htg & Hex).
        assert (He' : (g_e g <= e' /\ sp_e i <= e' /\ e' <= offset)%Z) by (unfold e'; destruct (g_e g <? sp_e i)%Z eqn:E1; lia).
        apply IH; [| |rewrite !concat_rev_cons; apply app_assoc].
        * constructor; [|exact Hm0]. unfold group_ok; cbn. split; [destruct (g_spans g); discriminate|].
          split; [lia|]. split; [apply Forall_app; split|].
          -- eapply Forall_impl; [|exact Hsp]. intros s Hs. eapply span_in_mono; [|exact Hs]. lia.
          -- constructor; [unfold span_in; lia|constructor].
          -- split; [destruct (g_spans g); [congruence|exact Hhd]|].
             split; [destruct (g_spans g); [congruence|exact Htg]|].
             apply Exists_app. unfold e'. destruct (g_e g <? sp_e i)%Z eqn:E1.
             ++ right. constructor. reflexivity.
             ++ left. exact Hex.
        * destruct m0 as [|g' m1]; cbn; [exact I|]. cbn in Hsep. exact Hsep.
  Qed.
End Groups.

Lemma build_groups_ok offset spans :
  exists m, build_groups offset spans (-1)%Z [] = GOk m /\ Forall (group_ok offset) m /\ sep_chain m /\
            concat (map g_spans (rev m)) = filter (fun s => negb (span_skipped offset s)) spans.
Proof. apply (build_groups_inv offset spans [] []); [constructor|exact I|reflexivity]. Qed.

Lemma annotation_agree n s t q g :
  stake q s = stake q t -> Forall (span_in (g_e g)) (g_spans g) -> (0 <= g_e g)%Z -> Z.to_nat (g_e g) <= q ->
  annotation n s g = annotation n t g.
Proof.
  intros E Hsp H0 Hq. unfold annotation, annotation_with.
  assert (Hb : ssub s (Z.to_nat (g_b g)) (Z.to_nat (g_e g)) = ssub t (Z.to_nat (g_b g)) (Z.to_nat (g_e g)))
    by (eapply ssub_agree; eauto).
  assert (Hm : map (fun x => ssub s (Z.to_nat (sp_b x)) (Z.to_nat (sp_e x)) ++ "=" ++ sp_ret x) (removelast (sort_end (g_spans g)))
             = map (fun x => ssub t (Z.to_nat (sp_b x)) (Z.to_nat (sp_e x)) ++ "=" ++ sp_ret x) (removelast (sort_end (g_spans g)))).
  { apply map_ext_Forall. apply removelast_Forall. apply sort_end_Forall.
    eapply Forall_impl; [|exact Hsp]. intros x Hx. cbv beta. f_equal.
    eapply ssub_agree; [exact E|]. unfold span_in in Hx. lia. }
  rewrite Hb, Hm. reflexivity.
Qed.

Lemma slices_ok_true offset s g :
  group_ok offset g -> Z.to_nat (g_e g) <= String.length s -> slices_ok s g = true.
Proof.
  intros (Hne & Hb & Hsp & _) Hl. unfold slices_ok.
  apply andb_true_iff. split; [lia|].
  apply forallb_forall. intros x Hx.
  assert (F : Forall (span_in (g_e g)) (removelast (sort_end (g_spans g))))
    by (apply removelast_Forall, sort_end_Forall; exact Hsp).
  rewrite Forall_forall in F. specialize (F x Hx). unfold span_in in F. lia.
Qed.

Lemma render_group_nonempty n cur g :
  g_spans g <> [] ->
  render_group n (DText cur) g =
  if slices_ok cur g then
    DText (stake (Z.to_nat (g_b g)) cur ++ group_ret g ++ annotation n cur g ++ sdrop (Z.to_nat (g_e g)) cur)
  else DPanic.
Proof. intros H. unfold render_group. destruct (g_spans g); [congruence|reflexivity]. Qed.

Lemma render_step offset n src g l :
  group_ok offset g -> (offset <= Z.of_nat (String.length src))%Z ->
  ranges_ok (String.length src) 0 l -> Z.to_nat (g_e g) <= first_b (String.length src) l ->
  render_group n (DText (splice src 0 l)) g = DText (splice src 0 (replacement n src g :: l)).
Proof.
  intros Hg Hoff Hr Hq. pose proof Hg as (Hne & Hb & Hsp & _).
  apply ranges_ok_le in Hr. destruct Hr as [_ Hfl].
  destruct (splice_prefix src (Z.to_nat (g_e g)) l Hq Hfl) as [P1 P2].
  rewrite render_group_nonempty by exact Hne.
  rewrite (slices_ok_true offset); [|exact Hg|eapply stake_len_ge; [exact P1|lia]].
  f_equal. unfold replacement. cbn [splice]. rewrite ssub_0.
  rewrite (annotation_agree n (splice src 0 l) src (Z.to_nat (g_e g)) g P1 Hsp) by lia.
  rewrite P2.
  replace (stake (Z.to_nat (g_b g)) (splice src 0 l)) with (stake (Z.to_nat (g_b g)) src).
  - now rewrite !sapp_assoc.
  - rewrite <- (stake_stake (Z.to_nat (g_b g)) (Z.to_nat (g_e g)) (splice src 0 l)) by lia.
    rewrite P1. symmetry. apply stake_stake. lia.
Qed.

(* the groups still to render (latest first) all end before the first range already replaced: the
   text below that point is still the source, so rendering a group is one more replaced range *)
Lemma fold_render offset n src : forall m l,
  Forall (group_ok offset) m -> sep_chain m -> (offset <= Z.of_nat (String.length src))%Z ->
  ranges_ok (String.length src) 0 l ->
  Z.to_nat (last_end_of m) <= first_b (String.length src) l ->
  fold_left (render_group n) m (DText (splice src 0 l)) =
  DText (splice src 0 (map (replacement n src) (rev m) ++ l)) /\
  ranges_ok (String.length src) 0 (map (replacement n src) (rev m) ++ l).
Proof.
  induction m as [|g m IH]; intros l Hok Hsep Hoff Hr Hq; cbn [fold_left rev map app].
  - split; [reflexivity|exact Hr].
  - inversion Hok as [|? ? Hg Hm]; subst. cbn [last_end_of] in Hq.
    rewrite (render_step offset n src g l Hg Hoff Hr Hq).
    pose proof Hg as (Hne & Hb & Hsp & _).
    assert (Hsep' : sep_chain m /\ (m <> [] -> (last_end_of m < g_b g)%Z)).
    { destruct m as [|g' m']; cbn in *; [split; [exact I|congruence]|]. destruct Hsep. split; [assumption|intros _; lia]. }
    destruct Hsep' as [Hs1 Hs2].
    destruct (IH (replacement n src g :: l)) as [E R]; try assumption.
    + cbn. repeat split; try lia. apply ranges_ok_le in Hr as Hr'.
      destruct l as [|[[b e] r] l']; cbn in *; [lia|]. repeat split; try lia. tauto.
    + unfold replacement. cbn [first_b]. destruct m as [|g' m']; [cbn; lia|].
      specialize (Hs2 ltac:(discriminate)). cbn [last_end_of] in *. lia.
    + rewrite E. rewrite map_app. cbn [map]. rewrite <- !app_assoc. cbn [app]. split; [reflexivity|].
      exact R.
Qed.

Theorem detail_shape_all data offset spans ret :
  offset <= String.length data ->
  let src := stake offset data in
  let gs := groups_of offset spans in
  make_detail_res data offset spans ret =
    DText (finish (splice src 0 (map (replacement (length gs) src) gs)) ret).
Proof.
  intros Hoff. cbv zeta. unfold make_detail_res.
  replace (Nat.leb offset (String.length data)) with true by (symmetry; apply Nat.leb_le; exact Hoff).
  cbn [negb]. unfold groups_of.
  destruct (build_groups_ok (Z.of_nat offset) spans) as (m & Em & Hok & Hsep & _). rewrite Em.
  assert (Hl : String.length (stake offset data) = offset) by (apply slen_stake; exact Hoff).
  remember (stake offset data) as src eqn:Esrc.
  destruct (fold_render (Z.of_nat offset) (length m) src m [] Hok Hsep) as [E _].
  - lia.
  - cbn. lia.
  - cbn [first_b]. destruct m as [|g m']; cbn [last_end_of]; [lia|].
    inversion Hok as [|? ? Hg ?]; subst. destruct Hg as (_ & Hb & _). lia.
  - change (splice src 0 []) with src in E. rewrite E. rewrite app_nil_r, rev_length. reflexivity.
Qed.

Theorem make_detail_no_panic data offset spans ret :
  offset <= String.length data -> make_detail_res data offset spans ret <> DPanic.
Proof. intros H. rewrite detail_shape_all by exact H. discriminate. Qed.

Fixpoint sep_fwd (l : list group) : Prop :=
  match l with
  | g :: (g' :: _) as r => (g_e g < g_b g')%Z /\ sep_fwd r
  | _ => True
  end.
Lemma sep_chain_rev m : sep_chain m -> sep_fwd (rev m).
Proof.
  assert (G : forall m acc, sep_chain m -> sep_fwd acc ->
             (forall g a, hd_error m = Some g -> hd_error acc = Some a -> (g_e g < g_b a)%Z) ->
             sep_fwd (rev_append m acc)).
  { induction m0 as [|g m0 IH]; intros acc H1 H2 H3; cbn; [exact H2|].
    apply IH.
    - destruct m0; cbn in *; [exact I|tauto].
    - destruct acc as [|a acc']; cbn; [exact I|]. split; [apply H3; reflexivity|exact H2].
    - intros g' a Hg' Ha. cbn in Ha. inversion Ha; subst. destruct m0; cbn in *; [discriminate|].
      inversion Hg'; subst. tauto. }
  intros H. rewrite rev_alt. apply G; [exact H|exact I|]. intros g a _ Ha. discriminate.
Qed.

Theorem groups_wf offset spans :
  let gs := groups_of offset spans in
  Forall (group_ok (Z.of_nat offset)) gs /\ sep_fwd gs.
Proof.
  cbn. unfold groups_of. destruct (build_groups_ok (Z.of_nat offset) spans) as (m & Em & Hok & Hsep & _). rewrite Em.
  split; [apply Forall_rev; exact Hok|apply sep_chain_rev; exact Hsep].
Qed.

Theorem groups_partition offset spans :
  concat (map g_spans (groups_of offset spans)) =
  filter (fun s => negb (span_skipped (Z.of_nat offset) s)) spans.
Proof.
  unfold groups_of. destruct (build_groups_ok (Z.of_nat offset) spans) as (m & Em & _ & _ & Hcat). rewrite Em.
  exact Hcat.
Qed.

Fixpoint nobr (s : string) : bool :=
  match s with
  | EmptyString => true
  | String c r => negb (Ascii.eqb c lbr) && negb (Ascii.eqb c rbr) && nobr r
  end.

Lemma nobr_app a b : nobr (a ++ b) = nobr a && nobr b.
Proof. induction a; cbn; [reflexivity|]. rewrite IHa. now rewrite !andb_assoc. Qed.
Lemma nobr_stake n s : nobr s = true -> nobr (stake n s) = true.
Proof.
  revert s; induction n; intros [|c r]; cbn; auto. intros H.
  apply andb_true_iff in H. destruct H as [H1 H2]. rewrite H1. cbn. auto.
Qed.
Lemma nobr_sdrop n s : nobr s = true -> nobr (sdrop n s) = true.
Proof.
  revert s; induction n; intros [|c r]; cbn; auto. intros H.
  apply andb_true_iff in H. destruct H as [H1 H2]. auto.
Qed.
Lemma nobr_ssub s b e : nobr s = true -> nobr (ssub s b e) = true.
Proof. intros. unfold ssub. now apply nobr_stake, nobr_sdrop. Qed.
Lemma nobr_join sep l : nobr sep = true -> Forall (fun x => nobr x = true) l -> nobr (join sep l) = true.
Proof.
  intros Hs H. induction H as [|x l Hx Hl IH]; cbn; [reflexivity|].
  destruct l; [exact Hx|]. rewrite !nobr_app, Hx, Hs. exact IH.
Qed.

Lemma strip_nobr_app a b : nobr a = true -> strip_go 0 (a ++ b) = a ++ strip_go 0 b.
Proof.
  induction a as [|c r IH]; cbn; intros H; [reflexivity|].
  apply andb_true_iff in H. destruct H as [H1 H2]. apply andb_true_iff in H1. destruct H1 as [H0 H1].
  destruct (Ascii.eqb c lbr); [discriminate|]. now rewrite IH.
Qed.
Lemma strip_in_bracket body rest : nobr body = true -> strip_go 1 (body ++ String rbr rest) = strip_go 0 rest.
Proof.
  induction body as [|c r IH]; cbn; intros H; [reflexivity|].
  apply andb_true_iff in H. destruct H as [H1 H2]. apply andb_true_iff in H1. destruct H1 as [H0 H1].
  destruct (Ascii.eqb c lbr); [discriminate|]. destruct (Ascii.eqb c rbr); [discriminate|]. now apply IH.
Qed.
Lemma strip_bracket body rest :
  nobr body = true -> strip_go 0 (("[" ++ body ++ "]") ++ rest) = strip_go 0 rest.
Proof.
  intros H. cbn. rewrite sapp_assoc. cbn. now apply strip_in_bracket.
Qed.

Definition simple_annot (a : string) : Prop :=
  a = "" \/ exists body, a = "[" ++ body ++ "]" /\ nobr body = true.

Lemma strip_value_annot v a rest :
  nobr v = true -> simple_annot a -> strip_go 0 ((v ++ a) ++ rest) = v ++ strip_go 0 rest.
Proof.
  intros Hv [->|(body & -> & Hb)].
  - rewrite sapp_nil_r. now apply strip_nobr_app.
  - rewrite sapp_assoc. rewrite strip_nobr_app by exact Hv. f_equal. now apply strip_bracket.
Qed.

Lemma strip_splice src (ann : group -> string) : nobr src = true -> forall gs p,
  Forall (fun g => nobr (group_ret g) = true /\ simple_annot (ann g)) gs ->
  strip_annotations (splice src p (map (fun g => (Z.to_nat (g_b g), Z.to_nat (g_e g), group_ret g ++ ann g)) gs)) =
  splice src p (map value_only gs).
Proof.
  intros Hs. unfold strip_annotations. induction gs as [|g gs IH]; intros p H; cbn [map splice].
  - rewrite <- (sapp_nil_r (sdrop p src)) at 1. rewrite strip_nobr_app by (now apply nobr_sdrop). cbn. apply sapp_nil_r.
  - inversion H as [|? ? [Hv Ha] Hr]; subst. unfold value_only at 1. cbn [splice].
    rewrite strip_nobr_app by (now apply nobr_ssub). f_equal.
    rewrite strip_value_annot by assumption. f_equal. apply IH. exact Hr.
Qed.

Definition span_clean (s : span) : Prop :=
  nobr (sp_ret s) = true /\ nobr (sp_text s) = true /\ nobr (sp_expr s) = true /\ nobr (sp_suffix s) = true /\
  sp_textonly s = false.
Lemma last_clean l : Forall span_clean l -> span_clean (last l dummy_span).
Proof. induction 1; cbn; [repeat split|]. destruct l; [assumption|]. exact IHForall. Qed.

Lemma annotation_simple (rd : nat -> nat -> string) n g :
  (forall b e, nobr (rd b e) = true) -> Forall span_clean (g_spans g) ->
  simple_annot (annotation_with rd n g) /\ nobr (group_ret g) = true.
Proof.
  intros Hrd Hc.
  assert (Hs : Forall span_clean (sort_end (g_spans g))) by (apply sort_end_Forall; exact Hc).
  pose proof (last_clean _ Hs) as (L1 & L2 & L3 & L4 & L5).
  split; [|exact L1].
  unfold annotation_with.
  set (lst := last (sort_end (g_spans g)) dummy_span) in *.
  set (parts := filter nonempty (map (fun s => rd (Z.to_nat (sp_b s)) (Z.to_nat (sp_e s)) ++ "=" ++ sp_ret s)
                                     (removelast (sort_end (g_spans g))))).
  assert (Hparts : Forall (fun x => nobr x = true) parts).
  { unfold parts. rewrite Forall_forall. intros x Hx. apply filter_In in Hx. destruct Hx as [Hx _].
    apply in_map_iff in Hx. destruct Hx as (s & <- & Hin).
    assert (F : Forall span_clean (removelast (sort_end (g_spans g)))) by (apply removelast_Forall; exact Hs).
    rewrite Forall_forall in F. destruct (F s Hin) as (R1 & _). rewrite !nobr_app, Hrd, R1. reflexivity. }
  set (subtxt := if Nat.ltb 1 (length (sort_end (g_spans g))) then
                   match parts with [] => "" | _ => "," ++ join "," parts end else "").
  assert (Hsub : nobr subtxt = true).
  { unfold subtxt. destruct (Nat.ltb 1 _); [|reflexivity].
    assert (J : nobr (join "," parts) = true) by (apply nobr_join; [reflexivity|exact Hparts]).
    destruct parts; [reflexivity|]. rewrite nobr_app, J. reflexivity. }
  set (base := rd (Z.to_nat (g_b g)) (Z.to_nat (g_e g))).
  assert (Hbase : nobr base = true) by apply Hrd.
  set (exprText := if nonempty (sp_expr lst) then sp_expr lst else base).
  assert (Hex : nobr exprText = true) by (unfold exprText; destruct (nonempty (sp_expr lst)); [exact L3|exact Hbase]).
  set (suffix0 := if nonempty (sp_suffix lst) then sp_suffix lst else "=").
  assert (Hsf : nobr suffix0 = true) by (unfold suffix0; destruct (nonempty (sp_suffix lst)); [exact L4|reflexivity]).
  rewrite L5.
  (* d2 = "[" ++ X with X bracket-free *)
  assert (D2 : exists X, nobr X = true /\
     (if String.eqb (g_tag g) "load" then "[" ++ exprText ++ (if nonempty (sp_text lst) then "," ++ sp_text lst else "")
      else if String.eqb (g_tag g) "load.computed"
           then (if nonempty (sp_text lst) && negb (String.eqb (sp_ret lst) (sp_text lst))
                 then ("[" ++ exprText) ++ suffix0 ++ sp_text lst else "[" ++ exprText) ++ suffix0 ++ sp_ret lst
           else (if nonempty (sp_text lst) && negb (String.eqb (sp_ret lst) (sp_text lst))
                 then ("[" ++ exprText) ++ suffix0 ++ sp_text lst else "[" ++ exprText)) = "[" ++ X).
  { destruct (String.eqb (g_tag g) "load").
    - eexists. split; [|reflexivity]. rewrite nobr_app, Hex. destruct (nonempty (sp_text lst)); [|reflexivity].
      rewrite nobr_app, L2. reflexivity.
    - destruct (nonempty (sp_text lst) && negb (String.eqb (sp_ret lst) (sp_text lst)));
        destruct (String.eqb (g_tag g) "load.computed"); cbn [append];
        eexists; (split; [|reflexivity]); rewrite ?nobr_app, ?Hex, ?Hsf, ?L1, ?L2; reflexivity. }
  destruct D2 as (X & HX & ->).
  match goal with |- simple_annot (if _ then _ else ?dd) => set (d4 := dd) end.
  assert (H4 : simple_annot d4).
  { unfold d4. destruct (Nat.eqb n 1 && _); [left; reflexivity|]. right. exists (X ++ subtxt). split.
    - cbn [append]. now rewrite sapp_assoc.
    - now rewrite nobr_app, HX, Hsub. }
  destruct (Nat.ltb 400 (String.length d4)); [|exact H4].
  right. exists "略". split; reflexivity.
Qed.

Theorem get_detail_text_idem data offset spans ret cache :
  let '(t1, c1) := get_detail_text data offset spans ret cache in
  let '(t2, c2) := get_detail_text data offset spans ret c1 in
  t2 = t1 /\ c2 = c1.
Proof.
  unfold get_detail_text. destruct spans as [|s l]; [split; reflexivity|].
  destruct (nonempty cache) eqn:Ec.
  - rewrite Ec. split; reflexivity.
  - destruct (nonempty (make_detail data offset (s :: l) ret)) eqn:Et; [split; reflexivity|].
    split; reflexivity.
Qed.

Theorem get_detail_text_vm_pure {V R} (st : vmstate V R) :
  let '(t, st') := get_detail_text_vm st in
  vm_ret st' = vm_ret st /\ vm_vars st' = vm_vars st /\ vm_rng st' = vm_rng st /\
  vm_data st' = vm_data st /\ vm_offset st' = vm_offset st /\ vm_spans st' = vm_spans st /\
  (* a second request returns the same text and leaves the state as it is *)
  get_detail_text_vm st' = (t, st') /\
  (* right after Parse (cache = "") the text is a function of (data, offset, spans, ret) alone *)
  (vm_cache st = "" -> t = match vm_spans st with [] => "" | _ => make_detail (vm_data st) (vm_offset st) (vm_spans st) (vm_ret st) end).
Proof.
  unfold get_detail_text_vm.
  pose proof (get_detail_text_idem (vm_data st) (vm_offset st) (vm_spans st) (vm_ret st) (vm_cache st)) as H.
  destruct (get_detail_text (vm_data st) (vm_offset st) (vm_spans st) (vm_ret st) (vm_cache st)) as [t c] eqn:E1.
  cbn [vm_ret vm_vars vm_rng vm_data vm_offset vm_spans vm_cache].
  destruct (get_detail_text (vm_data st) (vm_offset st) (vm_spans st) (vm_ret st) c) as [t2 c2] eqn:E2.
  destruct H as [-> ->].
  repeat split.
  intros Hc. unfold get_detail_text in E1. rewrite Hc in E1. destruct (vm_spans st); cbn in E1; inversion E1; reflexivity.
Qed.

(* what a run of the fragment records: every span inside the matched text, sorted by Begin (solveDetail) *)
Definition wf_spans (offset : nat) (spans : list span) : Prop :=
  Forall (span_in (Z.of_nat offset)) spans /\
  StronglySorted (fun a b => (sp_b a <= sp_b b)%Z) spans.

Lemma filter_all {A} (f : A -> bool) l : Forall (fun x => f x = true) l -> filter f l = l.
Proof. induction 1; cbn; [reflexivity|]. rewrite H. congruence. Qed.

Theorem detail_shape data offset spans ret :
  offset <= String.length data -> wf_spans offset spans ->
  let src := stake offset data in
  let gs := groups_of offset spans in
  (* the text: source with each group [b,e) replaced by value ++ annotation, then the final rule *)
  make_detail data offset spans ret = finish (splice src 0 (map (replacement (length gs) src) gs)) ret /\
  (* the groups: inside the matched text, strictly separated, in source order; no span is lost *)
  Forall (group_ok (Z.of_nat offset)) gs /\ sep_fwd gs /\ concat (map g_spans gs) = spans.
Proof.
  intros Hoff [Hin Hsort]. cbv zeta.
  split; [unfold make_detail; rewrite detail_shape_all by exact Hoff; reflexivity|].
  destruct (groups_wf offset spans) as [G1 G2]. split; [exact G1|]. split; [exact G2|].
  rewrite groups_partition. apply filter_all.
  eapply Forall_impl; [|exact Hin]. intros s Hs. unfold span_in in Hs. unfold span_skipped. lia.
Qed.


Theorem strip_is_source_with_values data offset spans :
  let src := stake offset data in
  let gs := groups_of offset spans in
  nobr src = true -> Forall span_clean spans ->
  strip_annotations (splice src 0 (map (replacement (length gs) src) gs)) = splice src 0 (map value_only gs).
Proof.
  cbv zeta. intros Hs Hc.
  set (src := stake offset data). set (gs := groups_of offset spans).
  assert (Hg : Forall (fun g => Forall span_clean (g_spans g)) gs).
  { apply (Forall_map g_spans (Forall span_clean)), Forall_concat. unfold gs. rewrite groups_partition.
    exact (incl_Forall (incl_filter _ _) Hc). }
  unfold replacement.
  apply (strip_splice src (fun g => annotation (length gs) src g) Hs gs 0).
  eapply Forall_impl; [|exact Hg]. intros g Hgc. cbv beta.
  destruct (annotation_simple (ssub src) (length gs) g) as [A1 A2]; [intros; now apply nobr_ssub|exact Hgc|].
  split; [exact A2|exact A1].
Qed.

Definition dice_span (b e : Z) (num : Z) (txt tag : string) : span :=
  mkSpan b e (show_Z num) txt "" tag false "".
Definition dice_group (b e : Z) (num : Z) (txt tag : string) : group :=
  mkGroup b e tag [dice_span b e num txt tag].

(* value[source=dice text] — or value[source] when the dice text is the value itself (rule 1.1), nothing when
   that is the whole input (rule 1.3), [略] above 400 bytes *)
Theorem dice_annotation_format rd n b e num txt tag :
  tag <> "load" -> tag <> "load.computed" ->
  let base := rd (Z.to_nat b) (Z.to_nat e) in
  let body := if nonempty txt && negb (String.eqb (show_Z num) txt) then base ++ "=" ++ txt else base in
  let d3 := "[" ++ body ++ "]" in
  let d4 := if Nat.eqb n 1 && String.eqb d3 ("[" ++ base ++ "]") then "" else d3 in
  group_ret (dice_group b e num txt tag) = show_Z num /\
  annotation_with rd n (dice_group b e num txt tag) = if Nat.ltb 400 (String.length d4) then "[略]" else d4.
Proof.
  intros E1 E2. cbv zeta. split; [reflexivity|]. apply String.eqb_neq in E1, E2.
  unfold annotation_with, dice_group, dice_span.
  cbn [g_spans g_b g_e g_tag sort_end insert_end last removelast map filter length Nat.ltb Nat.leb
       sp_expr sp_ret sp_text sp_suffix sp_textonly sp_b sp_e nonempty].
  rewrite E1, E2.
  destruct (nonempty txt && negb (String.eqb (show_Z num) txt)); cbn [append]; rewrite ?sapp_assoc; cbn [append]; reflexivity.
Qed.

(* For every fragment expression and any spacing, by a printer -> parser round trip: decimal rendering is read back
   exactly (uval / read_digits_uint), each level of the evaluator consumes exactly the text of a sub-expression of
   that level (round_trip), and the fuel S (length text) is enough (the measure is the length of the printed text).
   The check also evaluates eval_arith (strip_annotations text) inside Coq on every text Go produced for the
   fragment stream (Corr14.c14_eval_ok). *)
Definition strip_evaluates_statement : Prop :=
  forall e : aexp, prec_ok e = true -> eval_arith (aprint e) = Some (avalue e).

Lemma digit_not_ws c : is_digit c = true -> is_ws c = false.
Proof.
  unfold is_digit, is_ws. cbv zeta. intros H. apply andb_true_iff in H. destruct H as [H1 H2].
  apply N.leb_le in H1, H2. rewrite !orb_false_iff, !N.eqb_neq. lia.
Qed.
Lemma digit_not_minus c : is_digit c = true -> Ascii.eqb c ch_minus = false.
Proof. intros H. destruct (Ascii.eqb_spec c ch_minus) as [->|]; [discriminate H|reflexivity]. Qed.
Lemma digit_not_plus c : is_digit c = true -> Ascii.eqb c ch_plus = false.
Proof. intros H. destruct (Ascii.eqb_spec c ch_plus) as [->|]; [discriminate H|reflexivity]. Qed.

Lemma skip_ws_app ws s : all_ws ws = true -> skip_ws (ws ++ s) = skip_ws s.
Proof.
  induction ws as [|c r IH]; cbn [all_ws append skip_ws]; [reflexivity|].
  intros H. apply andb_true_iff in H. destruct H as [H1 H2]. rewrite H1. auto.
Qed.

(* unfolding equations (the fuel is matched inside) *)
Section Unfold.
  Variable pe : string -> option (Z * string).
  Lemma parse_unary_eq f s :
    parse_unary pe f s =
    match skip_ws s with
    | String c r =>
      if Ascii.eqb c ch_minus then
        match f with
        | O => None
        | S k => match parse_unary pe k r with Some (v, rest) => Some ((- v)%Z, rest) | None => None end
        end
      else if Ascii.eqb c ch_plus then
        match f with O => None | S k => parse_unary pe k r end
      else parse_atom pe s
    | EmptyString => None
    end.
  Proof. destruct f; reflexivity. Qed.
  Lemma term_rest_eq f acc s :
    term_rest pe f acc s =
    match skip_ws s with
    | String c r =>
      if Ascii.eqb c ch_star then
        match f with
        | O => None
        | S k => match parse_unary pe k r with
                 | Some (v, rest) => term_rest pe k (acc * v)%Z rest
                 | None => None
                 end
        end
      else Some (acc, s)
    | EmptyString => Some (acc, s)
    end.
  Proof. destruct f; reflexivity. Qed.
  Lemma expr_rest_eq f acc s :
    expr_rest pe f acc s =
    match skip_ws s with
    | String c r =>
      if Ascii.eqb c ch_plus then
        match f with
        | O => None
        | S k => match parse_term pe k r with
                 | Some (v, rest) => expr_rest pe k (acc + v)%Z rest
                 | None => None
                 end
        end
      else if Ascii.eqb c ch_minus then
        match f with
        | O => None
        | S k => match parse_term pe k r with
                 | Some (v, rest) => expr_rest pe k (acc - v)%Z rest
                 | None => None
                 end
        end
      else Some (acc, s)
    | EmptyString => Some (acc, s)
    end.
  Proof. destruct f; reflexivity. Qed.

  Lemma parse_atom_ws ws s : all_ws ws = true -> parse_atom pe (ws ++ s) = parse_atom pe s.
  Proof. intros H. unfold parse_atom. rewrite (skip_ws_app ws s H). reflexivity. Qed.
  Lemma parse_unary_ws f ws s : all_ws ws = true -> parse_unary pe f (ws ++ s) = parse_unary pe f s.
  Proof.
    intros H. rewrite (parse_unary_eq f (ws ++ s)), (parse_unary_eq f s).
    rewrite (skip_ws_app ws s H), (parse_atom_ws ws s H). reflexivity.
  Qed.
  Lemma parse_term_ws f ws s : all_ws ws = true -> parse_term pe f (ws ++ s) = parse_term pe f s.
  Proof. intros H. unfold parse_term. rewrite (parse_unary_ws f ws s H). reflexivity. Qed.
  Lemma parse_expr_step_ws f ws s : all_ws ws = true -> parse_expr_step pe f (ws ++ s) = parse_expr_step pe f s.
  Proof. intros H. unfold parse_expr_step. rewrite (parse_term_ws f ws s H). reflexivity. Qed.

  Definition nodigit (s : string) : bool :=
    match s with String c _ => negb (is_digit c) | EmptyString => true end.
  Definition nostar (s : string) : bool :=
    match skip_ws s with String c _ => negb (Ascii.eqb c ch_star) | EmptyString => true end.
  Definition noadd (s : string) : bool :=
    match skip_ws s with
    | String c _ => negb (Ascii.eqb c ch_plus) && negb (Ascii.eqb c ch_minus)
    | EmptyString => true
    end.

  Lemma term_rest_stop f acc s : nostar s = true -> term_rest pe f acc s = Some (acc, s).
  Proof.
    unfold nostar. intros H. rewrite term_rest_eq. destruct (skip_ws s) as [|c r]; [reflexivity|].
    destruct (Ascii.eqb c ch_star); [discriminate H|reflexivity].
  Qed.
  Lemma expr_rest_stop f acc s : noadd s = true -> expr_rest pe f acc s = Some (acc, s).
  Proof.
    unfold noadd. intros H. rewrite expr_rest_eq. destruct (skip_ws s) as [|c r]; [reflexivity|].
    destruct (Ascii.eqb c ch_plus); [discriminate H|].
    destruct (Ascii.eqb c ch_minus); [discriminate H|reflexivity].
  Qed.

  Lemma term_rest_star f acc ws s :
    all_ws ws = true ->
    term_rest pe (S f) acc (ws ++ String "*" s) =
    match parse_unary pe f s with
    | Some (v, rest) => term_rest pe f (acc * v)%Z rest
    | None => None
    end.
  Proof. intros H. rewrite term_rest_eq, (skip_ws_app ws _ H). reflexivity. Qed.
  Lemma expr_rest_op f acc ws (o : binop) s :
    all_ws ws = true -> o <> OMul ->
    expr_rest pe (S f) acc (ws ++ op_text o ++ s) =
    match parse_term pe f s with
    | Some (v, rest) => expr_rest pe f (match o with OSub => acc - v | _ => acc + v end)%Z rest
    | None => None
    end.
  Proof.
    intros H Ho. rewrite expr_rest_eq, (skip_ws_app ws _ H). destruct o; [reflexivity|reflexivity|congruence].
  Qed.
  Lemma parse_unary_minus f ws s :
    all_ws ws = true ->
    parse_unary pe (S f) (String "-" (ws ++ s)) =
    match parse_unary pe f s with Some (v, rest) => Some ((- v)%Z, rest) | None => None end.
  Proof. intros H. rewrite parse_unary_eq. cbn [skip_ws]. change (is_ws "-") with false. cbv iota.
    change (Ascii.eqb "-" ch_minus) with true. cbv iota. rewrite (parse_unary_ws f ws s H). reflexivity. Qed.
  Lemma parse_unary_plus f ws s :
    all_ws ws = true ->
    parse_unary pe (S f) (String "+" (ws ++ s)) = parse_unary pe f s.
  Proof. intros H. rewrite parse_unary_eq. cbn [skip_ws]. change (is_ws "+") with false. cbv iota.
    change (Ascii.eqb "+" ch_minus) with false. change (Ascii.eqb "+" ch_plus) with true. cbv iota.
    apply parse_unary_ws, H. Qed.
  Lemma parse_unary_paren f s :
    parse_unary pe f (String "(" s) =
    match pe s with
    | Some (v, rest) =>
      match skip_ws rest with
      | String c2 r2 => if Ascii.eqb c2 ch_rp then Some (v, r2) else None
      | EmptyString => None
      end
    | None => None
    end.
  Proof. rewrite parse_unary_eq. reflexivity. Qed.
End Unfold.

Fixpoint uval (acc : Z) (d : Decimal.uint) : Z :=
  match d with
  | Decimal.Nil => acc
  | Decimal.D0 l => uval (acc * 10 + 0) l
  | Decimal.D1 l => uval (acc * 10 + 1) l
  | Decimal.D2 l => uval (acc * 10 + 2) l
  | Decimal.D3 l => uval (acc * 10 + 3) l
  | Decimal.D4 l => uval (acc * 10 + 4) l
  | Decimal.D5 l => uval (acc * 10 + 5) l
  | Decimal.D6 l => uval (acc * 10 + 6) l
  | Decimal.D7 l => uval (acc * 10 + 7) l
  | Decimal.D8 l => uval (acc * 10 + 8) l
  | Decimal.D9 l => uval (acc * 10 + 9) l
  end%Z.

Lemma uval_acc d : forall acc : positive, uval (Zpos acc) d = Zpos (Pos.of_uint_acc d acc).
Proof.
  induction d; intros acc; cbn [uval Pos.of_uint_acc]; try reflexivity;
    rewrite <- IHd; f_equal; lia.
Qed.
Lemma uval_of_uint d : uval 0 d = Z.of_N (Pos.of_uint d).
Proof.
  induction d; cbn [uval Pos.of_uint]; try reflexivity; try exact IHd;
    cbn [Z.mul Z.add Z.of_N]; apply uval_acc.
Qed.
Lemma uval_to_uint p : uval 0 (Pos.to_uint p) = Zpos p.
Proof. rewrite uval_of_uint, DecimalPos.Unsigned.of_to. reflexivity. Qed.

Lemma read_digits_uint d : forall acc rest, nodigit rest = true ->
  read_digits acc (DecimalString.NilEmpty.string_of_uint d ++ rest) = (uval acc d, rest).
Proof.
  induction d; intros acc rest H; cbn [DecimalString.NilEmpty.string_of_uint append uval read_digits];
    [|exact (IHd _ rest H) ..].
  destruct rest as [|c r]; [reflexivity|]. cbn [read_digits]. cbn [nodigit] in H.
  destruct (is_digit c); [discriminate H|reflexivity].
Qed.

Lemma nz_uint_head d : exists c s, DecimalString.NilZero.string_of_uint d = String c s /\ is_digit c = true.
Proof. destruct d; cbn; eexists; eexists; split; reflexivity. Qed.
Lemma read_digits_nz d rest : nodigit rest = true ->
  read_digits 0 (DecimalString.NilZero.string_of_uint d ++ rest) = (uval 0 d, rest).
Proof.
  intros H. destruct d; try (apply (read_digits_uint _ 0%Z rest H)).
  cbn [DecimalString.NilZero.string_of_uint append read_digits uval]. change (is_digit "0") with true. cbv iota.
  destruct rest as [|c r]; [reflexivity|]. cbn [read_digits]. cbn [nodigit] in H.
  destruct (is_digit c); [discriminate H|reflexivity].
Qed.

Lemma parse_unary_number pe f d rest : nodigit rest = true ->
  parse_unary pe f (DecimalString.NilZero.string_of_uint d ++ rest) = Some (uval 0 d, rest).
Proof.
  intros H. pose proof (read_digits_nz d rest H) as R.
  destruct (nz_uint_head d) as (c & s & E & Hc). rewrite E in *. cbn [append] in *.
  rewrite parse_unary_eq. cbn [skip_ws]. rewrite (digit_not_ws c Hc), (digit_not_minus c Hc), (digit_not_plus c Hc).
  unfold parse_atom. cbn [skip_ws]. rewrite (digit_not_ws c Hc), Hc, R. reflexivity.
Qed.

Lemma parse_unary_show_Z pe f z rest : nodigit rest = true -> 1 <= f ->
  parse_unary pe f (show_Z z ++ rest) = Some (z, rest).
Proof.
  intros H Hf. destruct z as [|p|p].
  - exact (parse_unary_number pe f (Decimal.D0 Decimal.Nil) rest H).
  - pose proof (parse_unary_number pe f (Pos.to_uint p) rest H) as E. rewrite uval_to_uint in E. exact E.
  - change (show_Z (Zneg p)) with (String "-" (DecimalString.NilZero.string_of_uint (Pos.to_uint p))).
    cbn [append]. destruct f as [|f]; [lia|].
    pose proof (parse_unary_minus pe f "" (DecimalString.NilZero.string_of_uint (Pos.to_uint p) ++ rest) eq_refl) as M.
    cbn [append] in M. rewrite M.
    rewrite (parse_unary_number pe f _ rest H), uval_to_uint. reflexivity.
Qed.
Lemma show_Z_len z : 1 <= String.length (show_Z z).
Proof.
  destruct (show_Z_head z) as (c & r & -> & _). cbn [String.length]. lia.
Qed.

Lemma ws_not_digit c : is_ws c = true -> is_digit c = false.
Proof. intros H. destruct (is_digit c) eqn:E; [|reflexivity]. rewrite (digit_not_ws c E) in H. discriminate H. Qed.
Lemma cont_props ws c s :
  all_ws ws = true -> is_ws c = false -> is_digit c = false ->
  nodigit (ws ++ String c s) = true /\
  nostar (ws ++ String c s) = negb (Ascii.eqb c ch_star) /\
  noadd (ws ++ String c s) = negb (Ascii.eqb c ch_plus) && negb (Ascii.eqb c ch_minus).
Proof.
  intros Hw Hc Hd. split; [|split].
  - destruct ws as [|a r]; cbn [append nodigit]; [rewrite Hd; reflexivity|].
    cbn [all_ws] in Hw. apply andb_true_iff in Hw. destruct Hw as [Ha _]. rewrite (ws_not_digit a Ha). reflexivity.
  - unfold nostar. rewrite (skip_ws_app ws _ Hw). cbn [skip_ws]. rewrite Hc. reflexivity.
  - unfold noadd. rewrite (skip_ws_app ws _ Hw). cbn [skip_ws]. rewrite Hc. reflexivity.
Qed.

(* operators on the left spine of a product / of a sum: term_rest and expr_rest spend one unit of
   fuel on each, so after reading e as the left operand of such a chain the loop goes on with fuel
   f - stars e resp. f - adds e; round_trip has to name that fuel to be usable as an induction
   hypothesis for the operand to the left of an operator *)
Fixpoint stars (e : aexp) : nat := match e with ABin OMul l _ _ _ => S (stars l) | _ => 0 end.
Fixpoint adds (e : aexp) : nat :=
  match e with ABin OAdd l _ _ _ | ABin OSub l _ _ _ => S (adds l) | _ => 0 end.

Lemma aprint_len e : 1 <= String.length (aprint e).
Proof.
  induction e; cbn [aprint]; rewrite ?slen_app; cbn [String.length]; try lia.
  - unfold show_N. apply show_Z_len.
  - apply show_Z_len.
Qed.
Lemma stars_lt e : stars e < String.length (aprint e).
Proof.
  induction e; try (cbn [stars]; apply aprint_len).
  destruct op; try (cbn [stars]; apply aprint_len).
  cbn [stars aprint]. rewrite !slen_app. pose proof (aprint_len e2). lia.
Qed.
Lemma adds_lt e : adds e < String.length (aprint e).
Proof.
  induction e; try (cbn [adds]; apply aprint_len).
  destruct op; try (cbn [adds]; apply aprint_len);
  cbn [adds aprint]; rewrite !slen_app; pose proof (aprint_len e2); lia.
Qed.

(* the evaluator has three levels: signed atom (parse_unary), product (parse_term = a signed atom,
   then term_rest for the `* atom` that follow), sum (parse_expr_step = a product, then expr_rest).
   What is read at one level is read at the next, followed by the rest loop of that level. *)
Lemma term_of_unary pe f s v rest :
  parse_unary pe f s = Some (v, rest) -> parse_term pe f s = term_rest pe f v rest.
Proof. intros H. unfold parse_term. rewrite H. reflexivity. Qed.
Lemma sum_of_term pe f f' s v rest :
  parse_term pe f s = term_rest pe f' v rest -> nostar rest = true ->
  parse_expr_step pe f s = expr_rest pe f v rest.
Proof. intros H Hs. unfold parse_expr_step. rewrite H, (term_rest_stop pe f' v rest Hs). reflexivity. Qed.
(* the first conjunct repeats the hypothesis: the three are the conclusion of round_trip *)
Lemma from_unary pe f e rest :
  stars e = 0 -> adds e = 0 ->
  parse_unary pe f (aprint e ++ rest) = Some (avalue e, rest) ->
  (2 <= alevel e -> parse_unary pe f (aprint e ++ rest) = Some (avalue e, rest)) /\
  (1 <= alevel e -> parse_term pe f (aprint e ++ rest) = term_rest pe (f - stars e) (avalue e) rest) /\
  (nostar rest = true -> parse_expr_step pe f (aprint e ++ rest) = expr_rest pe (f - adds e) (avalue e) rest).
Proof.
  intros -> -> H. rewrite Nat.sub_0_r. split; [auto|]. split; [intros _; apply term_of_unary, H|].
  intros Hs. exact (sum_of_term pe f f _ _ rest (term_of_unary _ _ _ _ _ H) Hs).
Qed.

Lemma cont_op ws o s :
  all_ws ws = true ->
  nodigit (ws ++ op_text o ++ s) = true /\ (o <> OMul -> nostar (ws ++ op_text o ++ s) = true).
Proof.
  intros H. destruct o; cbn [op_text append];
    [destruct (cont_props ws "+" s H eq_refl eq_refl) as (C1 & C2 & _)
    |destruct (cont_props ws "-" s H eq_refl eq_refl) as (C1 & C2 & _)
    |destruct (cont_props ws "*" s H eq_refl eq_refl) as (C1 & C2 & _)];
    (split; [exact C1|]); [intros _; exact C2|intros _; exact C2|congruence].
Qed.

Lemma prec_ok_bin o l ws1 ws2 r :
  prec_ok (ABin o l ws1 ws2 r) = true ->
  all_ws ws1 = true /\ all_ws ws2 = true /\ prec_ok l = true /\ prec_ok r = true /\ 1 <= alevel r /\
  (o = OMul -> 1 <= alevel l /\ 2 <= alevel r).
Proof.
  intros Hp. destruct o; cbn [prec_ok] in Hp; rewrite !andb_true_iff, !Nat.leb_le in Hp.
  1, 2: repeat split; try tauto; discriminate.
  repeat split; try tauto; lia.
Qed.

Lemma round_trip e : prec_ok e = true ->
  forall k f rest, String.length (aprint e) <= k -> String.length (aprint e) <= f -> nodigit rest = true ->
  (2 <= alevel e -> parse_unary (parse_expr k) f (aprint e ++ rest) = Some (avalue e, rest)) /\
  (1 <= alevel e ->
   parse_term (parse_expr k) f (aprint e ++ rest) = term_rest (parse_expr k) (f - stars e) (avalue e) rest) /\
  (nostar rest = true ->
   parse_expr_step (parse_expr k) f (aprint e ++ rest) = expr_rest (parse_expr k) (f - adds e) (avalue e) rest).
Proof.
  induction e as [n|v|ws e IH|ws e IH|ws1 e IH ws2|op l IHl ws1 ws2 r IHr]; intros Hp k f rest Hk Hf Hnd.
  -
    apply from_unary; [reflexivity|reflexivity|]. cbn [aprint avalue]. unfold show_N.
    apply parse_unary_show_Z; [exact Hnd|]. pose proof (aprint_len (ANum n)). lia.
  -
    apply from_unary; [reflexivity|reflexivity|]. cbn [aprint avalue].
    apply parse_unary_show_Z; [exact Hnd|]. pose proof (aprint_len (ARoll v)). lia.
  -
    cbn [prec_ok] in Hp. rewrite !andb_true_iff, Nat.leb_le in Hp. destruct Hp as [[Hw Hl] He].
    cbn [aprint] in *. rewrite !slen_app in Hk, Hf. cbn [String.length] in Hk, Hf.
    apply from_unary; [reflexivity|reflexivity|]. cbn [aprint avalue]. rewrite !sapp_assoc. cbn [append].
    destruct f as [|f]; [lia|]. rewrite (parse_unary_minus _ f ws _ Hw).
    destruct (IH He k f rest ltac:(lia) ltac:(lia) Hnd) as (H1 & _ & _). rewrite (H1 Hl). reflexivity.
  -
    cbn [prec_ok] in Hp. rewrite !andb_true_iff, Nat.leb_le in Hp. destruct Hp as [[Hw Hl] He].
    cbn [aprint] in *. rewrite !slen_app in Hk, Hf. cbn [String.length] in Hk, Hf.
    apply from_unary; [reflexivity|reflexivity|]. cbn [aprint avalue]. rewrite !sapp_assoc. cbn [append].
    destruct f as [|f]; [lia|]. rewrite (parse_unary_plus _ f ws _ Hw).
    destruct (IH He k f rest ltac:(lia) ltac:(lia) Hnd) as (H1 & _ & _). exact (H1 Hl).
  -
    cbn [prec_ok] in Hp. rewrite !andb_true_iff in Hp. destruct Hp as [[Hw1 Hw2] He].
    cbn [aprint] in *. rewrite !slen_app in Hk, Hf. cbn [String.length] in Hk, Hf.
    apply from_unary; [reflexivity|reflexivity|]. cbn [aprint avalue]. rewrite !sapp_assoc. cbn [append].
    rewrite parse_unary_paren.
    destruct k as [|k]; [lia|]. cbn [parse_expr]. rewrite (parse_expr_step_ws _ k ws1 _ Hw1).
    destruct (cont_props ws2 ")" rest Hw2 eq_refl eq_refl) as (C1 & C2 & C3).
    destruct (IH He k k (ws2 ++ String ")" rest) ltac:(lia) ltac:(lia) C1) as (_ & _ & H3).
    rewrite (H3 C2), (expr_rest_stop _ _ _ _ C3), (skip_ws_app ws2 _ Hw2). reflexivity.
  - (* the left operand is read up to the operator, at the level of the operator *)
    destruct (prec_ok_bin _ _ _ _ _ Hp) as (Hw1 & Hw2 & Hl & Hr & Hlv & Hmul).
    assert (Hop : String.length (op_text op) = 1) by (destruct op; reflexivity).
    cbn [aprint] in *. rewrite !slen_app, Hop in Hk, Hf. rewrite !sapp_assoc.
    destruct (cont_op ws1 op (ws2 ++ aprint r ++ rest) Hw1) as (C1 & C2).
    destruct (IHl Hl k f _ ltac:(lia) ltac:(lia) C1) as (_ & H2 & H3).
    pose proof (adds_lt l) as Ha. pose proof (stars_lt l) as Hst.
    destruct op; cbn [alevel avalue stars adds].
    1, 2: split; [intros; lia|]; split; [intros; lia|]; intros Hs.
    1, 2: rewrite (H3 (C2 ltac:(discriminate))).
    1, 2: destruct (f - adds l) as [|f'] eqn:Ef; [lia|].
    1, 2: rewrite (expr_rest_op _ f' _ ws1 _ _ Hw1) by discriminate; rewrite (parse_term_ws _ f' ws2 _ Hw2).
    1, 2: destruct (IHr Hr k f' rest ltac:(lia) ltac:(lia) Hnd) as (_ & H2r & _).
    1, 2: rewrite (H2r Hlv), (term_rest_stop _ _ _ _ Hs); f_equal; lia.
    destruct (Hmul eq_refl) as [Hll Hlr].
    assert (T : parse_term (parse_expr k) f (aprint l ++ ws1 ++ op_text OMul ++ ws2 ++ aprint r ++ rest) =
                term_rest (parse_expr k) (f - S (stars l)) (avalue l * avalue r)%Z rest).
    { rewrite (H2 Hll). destruct (f - stars l) as [|f'] eqn:Ef; [lia|].
      cbn [op_text append]. rewrite (term_rest_star _ f' _ ws1 _ Hw1), (parse_unary_ws _ f' ws2 _ Hw2).
      destruct (IHr Hr k f' rest ltac:(lia) ltac:(lia) Hnd) as (H1 & _ & _).
      rewrite (H1 Hlr). f_equal. lia. }
    split; [intros; lia|]. split; [intros _; exact T|].
    intros Hs. rewrite Nat.sub_0_r. exact (sum_of_term _ _ _ _ _ _ T Hs).
Qed.

Theorem strip_evaluates : strip_evaluates_statement.
Proof.
  intros e Hp. unfold eval_arith. cbn [parse_expr].
  destruct (round_trip e Hp (String.length (aprint e)) (String.length (aprint e)) "" (le_n _) (le_n _) eq_refl)
    as (_ & _ & H3).
  rewrite (sapp_nil_r (aprint e)) in H3. rewrite (H3 eq_refl), (expr_rest_stop _ _ _ "" eq_refl). reflexivity.
Qed.

(* a family of more than a thousand well-formed sample expressions, all blank / sign / nesting shapes *)
Definition sample_atoms : list aexp := [ANum 0; ANum 12; ARoll (-3); ARoll 100].
Definition sample_ws : list string := [""; String (ascii_of_N 10) " "].
Definition sample_unary : list aexp :=
  (sample_atoms ++ flat_map (fun a => [ANeg " " a; APos "" a; ANeg "" (ANeg "" a)]) [ANum 7; ARoll (-3)])%list.
Definition sample_bin (ls rs : list aexp) (ops : list binop) (wss : list string) : list aexp :=
  flat_map (fun l => flat_map (fun r => flat_map (fun o => flat_map (fun w1 => map (fun w2 => ABin o l w1 w2 r) wss) wss) ops) rs) ls.
Definition sample_terms : list aexp := (sample_unary ++ sample_bin sample_unary sample_atoms [OMul] [""])%list.
Definition sample_level2 : list aexp :=
  (sample_atoms ++ map (fun e => AParen " " e "") (sample_bin [ANum 12; ARoll (-3)] [ANum 7; ARoll 100] [OAdd; OSub; OMul] [" "]))%list.
Definition sample_exprs : list aexp :=
  (sample_terms ++ sample_bin sample_terms sample_level2 [OAdd; OSub] sample_ws ++
   sample_bin (sample_bin sample_atoms sample_atoms [OAdd; OSub; OMul] [""]) sample_level2 [OAdd; OSub; OMul] [" "])%list.
Theorem strip_evaluates_partial :
  forall e, In e sample_exprs -> prec_ok e = true -> eval_arith (aprint e) = Some (avalue e).
Proof. intros e _. apply strip_evaluates. Qed.
Lemma sample_exprs_count : (1000 <=? length (filter prec_ok sample_exprs))%nat = true.
Proof. vm_compute. reflexivity. Qed.

(* `x1 = 5` then `(2d6)d4 + 3*f - x1` (harness c14-src, seed 5): spans, offset, result and text as Go produced them *)
Definition ex_src : string := "(2d6)d4 + 3*f - x1".
Definition ex_spans : list span :=
  [mkSpan 0 7 "19" "3+3+2+1+2+3+2+3" "" "dice" false "";
   mkSpan 1 4 "8" "4+4" "" "dice" false "";
   mkSpan 12 13 "0" "+--+" "" "dice-fate" false "";
   mkSpan 16 18 "5" "" "" "load" false ""].
Definition ex_go_text : string := "19[(2d6)d4=3+3+2+1+2+3+2+3,2d6=8] + 3*0[f=+--+] - 5[x1]".

Lemma ex_shape :
  make_detail ex_src 18 ex_spans "14" = ex_go_text /\ wf_spans 18 ex_spans /\ length (groups_of 18 ex_spans) = 3.
Proof.
  split; [vm_compute; reflexivity|]. split; [|vm_compute; reflexivity].
  split.
  - repeat constructor; cbn; lia.
  - repeat constructor; cbn; lia.
Qed.
Lemma ex_strip :
  nobr (stake 18 ex_src) = true /\ Forall span_clean ex_spans /\
  strip_annotations ex_go_text = "19 + 3*0 - 5" /\ eval_arith (strip_annotations ex_go_text) = Some 14%Z.
Proof.
  split; [vm_compute; reflexivity|]. split; [repeat constructor|]. split; vm_compute; reflexivity.
Qed.
Lemma ex_small :
  make_detail "d10" 3 [mkSpan 0 3 "3" "3" "" "dice" false ""] "3" = "" /\
  make_detail " 2d6 " 5 [mkSpan 1 4 "7" "3+4" "" "dice" false ""] "7" = "7[2d6=3+4]".
Proof. split; vm_compute; reflexivity. Qed.

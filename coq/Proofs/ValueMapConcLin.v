(* Generic part of the linearizability proof for Model/ValueMapConc.v:
   ghost linearization state driven by the annotations of the model, and the proof that,
   as long as every annotation is justified (lg_ok), the recorded history is linearizable. *)
From stdpp Require Import gmap.
From Coq Require Import NArith Lia.
From DS Require Import Model.ValueMap Model.ValueMapConc.

(* ghost status of a thread with an operation in progress: GInv o seen — invoked, not yet
   linearized, `seen` = the abstract maps there have been since its invocation (newest first);
   GLin r — linearized with result r, response still to come *)
Inductive gstatus := GInv (o : cop) (seen : list spec) | GLin (r : vres).
Record lghost := { g_abs : spec; g_th : gmap nat gstatus }.

Definition tick (s : spec) (x : gstatus) : gstatus :=
  match x with GInv o seen => GInv o (s :: seen) | GLin r => GLin r end.
Definition to_l (x : gstatus) : lstatus :=
  match x with GInv o _ => SInv o | GLin r => SLin r end.
Definition stat (g : lghost) : gmap nat lstatus := to_l <$> g_th g.

Definition lg_step (g : lghost) (t : nat) (a : ann) : lghost :=
  match a with
  | ATau => g
  | AInv o => {| g_abs := g_abs g; g_th := <[t := GInv o [g_abs g]]> (g_th g) |}
  | ARet r => {| g_abs := g_abs g; g_th := delete t (g_th g) |}
  | ALin =>
    match g_th g !! t with
    | Some (GInv o _) =>
      let '(s', r) := spec_step (g_abs g) (vop_of o) in
      {| g_abs := s'; g_th := <[t := GLin r]> (tick s' <$> g_th g) |}
    | _ => g
    end
  | ALinPast r =>
    match g_th g !! t with
    | Some (GInv o _) => {| g_abs := g_abs g; g_th := <[t := GLin r]> (g_th g) |}
    | _ => g
    end
  end.

Definition lg_ok (g : lghost) (t : nat) (a : ann) : Prop :=
  match a with
  | AInv o => g_th g !! t = None
  | ARet r => g_th g !! t = Some (GLin r)
  | ALinPast r => forall o seen, g_th g !! t = Some (GInv o seen) ->
                  exists s, s ∈ seen /\ spec_step s (vop_of o) = (s, r)
  | _ => True
  end.

Definition ann_events (t : nat) (a : ann) : list hevent :=
  match a with AInv o => [EInv t o] | ARet r => [ERet t r] | _ => [] end.

Definition mark_tid (m : mark) : nat :=
  match m with MInv t _ => t | MLin t => t | MRet t _ => t end.
Definition not_in (t : nat) (l : list mark) : Prop := Forall (fun m => mark_tid m <> t) l.

(* h has a linearization H (marks inserted) whose replay gives the ghost's abstract map and
   statuses, and every map a pending thread has seen is the state of a prefix of H that lies
   after the thread's invocation and is followed by no mark of the thread: a linearization mark
   for an effect-free operation can still be inserted there *)
Definition HInv (h : list hevent) (g : lghost) : Prop :=
  exists H, erase H = h /\ replay (∅, ∅) H = Some (g_abs g, stat g) /\
    forall t o seen s, g_th g !! t = Some (GInv o seen) -> s ∈ seen ->
      exists H1 H2 th1, H = H1 ++ H2 /\ not_in t H2 /\
        replay (∅, ∅) H1 = Some (s, th1) /\ th1 !! t = Some (SInv o).

Lemma replay_app st l1 l2 :
  replay st (l1 ++ l2) = match replay st l1 with Some st' => replay st' l2 | None => None end.
Proof.
  revert st. induction l1 as [|m l1 IH]; intros st; simpl; [done|].
  destruct (replay1 st m); [apply IH|done].
Qed.

Lemma erase_app l1 l2 : erase (l1 ++ l2) = erase l1 ++ erase l2.
Proof. unfold erase. apply omap_app. Qed.

Lemma replay_frame t x l s th s' th' :
  not_in t l -> replay (s, th) l = Some (s', th') ->
  replay (s, <[t := x]> th) l = Some (s', <[t := x]> th').
Proof.
  revert s th. induction l as [|m l IH]; intros s th Hn Hr; simpl in *.
  { by inversion Hr. }
  apply Forall_cons in Hn as [Hm Hn].
  destruct m as [t0 o|t0|t0 r]; simpl in *.
  - rewrite lookup_insert_ne by done.
    destruct (th !! t0); [done|]. rewrite insert_commute by done. by apply IH.
  - rewrite lookup_insert_ne by done.
    destruct (th !! t0) as [[o|r]|]; try done.
    destruct (spec_step s (vop_of o)) as [s1 r1].
    rewrite insert_commute by done. by apply IH.
  - rewrite lookup_insert_ne by done.
    destruct (th !! t0) as [[o|r']|]; try done.
    destruct (bool_decide (r = r')); [|done].
    rewrite delete_insert_ne by done. by apply IH.
Qed.

Lemma stat_tick s (th : gmap nat gstatus) : to_l <$> (tick s <$> th) = to_l <$> th.
Proof.
  rewrite <-map_fmap_compose. apply map_fmap_ext. intros i x _. by destruct x.
Qed.

Lemma not_in_app t l1 l2 : not_in t (l1 ++ l2) <-> not_in t l1 /\ not_in t l2.
Proof. apply Forall_app. Qed.

(* chk names the third conjunct of HInv: a checkpoint of thread t *)
Definition chk (H : list mark) (t : nat) (o : cop) (s : spec) : Prop :=
  exists H1 H2 th1, H = H1 ++ H2 /\ not_in t H2 /\
    replay (∅, ∅) H1 = Some (s, th1) /\ th1 !! t = Some (SInv o).

Lemma chk_snoc H t o s m : chk H t o s -> mark_tid m <> t -> chk (H ++ [m]) t o s.
Proof.
  intros (H1 & H2 & th1 & -> & Hni & Hr & Hl) Hm. exists H1, (H2 ++ [m]), th1.
  split; [by rewrite app_assoc|]. split; [|done]. apply not_in_app. split; [done|]. by constructor.
Qed.

Lemma chk_end H t o s th :
  replay (∅, ∅) H = Some (s, th) -> th !! t = Some (SInv o) -> chk H t o s.
Proof. intros Hr Hl. exists H, [], th. split; [by rewrite app_nil_r|]. split; [constructor|done]. Qed.

Lemma HInv_inv h g t o :
  HInv h g -> g_th g !! t = None -> HInv (h ++ [EInv t o]) (lg_step g t (AInv o)).
Proof.
  intros (H & He & Hr & Hs) Hn. exists (H ++ [MInv t o]). split; [|split].
  - rewrite erase_app, He. done.
  - rewrite replay_app, Hr. simpl. unfold stat in *. simpl.
    rewrite lookup_fmap, Hn. simpl. by rewrite fmap_insert.
  - simpl. intros t' o' seen s Hl Hin.
    destruct (decide (t' = t)) as [->|Hne].
    + rewrite lookup_insert in Hl. inversion Hl; subst.
      apply elem_of_list_singleton in Hin as ->.
      apply (chk_end _ _ _ _ (<[t := SInv o']> (stat g))); [|by rewrite lookup_insert].
      rewrite replay_app, Hr. simpl. unfold stat. by rewrite lookup_fmap, Hn.
    + rewrite lookup_insert_ne in Hl by done. apply chk_snoc; [by eapply Hs|simpl; congruence].
Qed.

Lemma HInv_ret h g t r :
  HInv h g -> g_th g !! t = Some (GLin r) -> HInv (h ++ [ERet t r]) (lg_step g t (ARet r)).
Proof.
  intros (H & He & Hr & Hs) Hn. exists (H ++ [MRet t r]). split; [|split].
  - rewrite erase_app, He. done.
  - rewrite replay_app, Hr. simpl. unfold stat in *. simpl.
    rewrite lookup_fmap, Hn. simpl. rewrite bool_decide_true by done. by rewrite fmap_delete.
  - simpl. intros t' o' seen s Hl Hin.
    destruct (decide (t' = t)) as [->|Hne]; [by rewrite lookup_delete in Hl|].
    rewrite lookup_delete_ne in Hl by done. apply chk_snoc; [by eapply Hs|simpl; congruence].
Qed.

Lemma HInv_lin h g t :
  HInv h g -> HInv h (lg_step g t ALin).
Proof.
  intros (H & He & Hr & Hs). simpl.
  destruct (g_th g !! t) as [[o seen0|r0]|] eqn:Ht; try (by exists H).
  destruct (spec_step (g_abs g) (vop_of o)) as [s' r] eqn:Hsp.
  assert (replay (∅, ∅) (H ++ [MLin t]) = Some (s', <[t := SLin r]> (stat g))) as Hr'.
  { rewrite replay_app, Hr. simpl. unfold stat. rewrite lookup_fmap, Ht. simpl. by rewrite Hsp. }
  exists (H ++ [MLin t]). split; [|split].
  - rewrite erase_app, He. simpl. by rewrite app_nil_r.
  - rewrite Hr'. unfold stat. simpl. by rewrite fmap_insert, stat_tick.
  - simpl. intros t' o' seen s Hl Hin.
    destruct (decide (t' = t)) as [->|Hne]; [by rewrite lookup_insert in Hl|].
    rewrite lookup_insert_ne, lookup_fmap in Hl by done.
    destruct (g_th g !! t') as [[o1 seen1|r1]|] eqn:Ht'; simpl in Hl; inversion Hl; subst.
    apply elem_of_cons in Hin as [->|Hin].
    + apply (chk_end _ _ _ _ _ Hr'). rewrite lookup_insert_ne by done. unfold stat.
      by rewrite lookup_fmap, Ht'.
    + apply chk_snoc; [by eapply Hs|simpl; congruence].
Qed.

Lemma replay_app_inv st l1 l2 st2 :
  replay st (l1 ++ l2) = Some st2 -> exists st1, replay st l1 = Some st1 /\ replay st1 l2 = Some st2.
Proof.
  rewrite replay_app. destruct (replay st l1) as [st1|]; [|done]. intros. by exists st1.
Qed.

Lemma HInv_linpast h g t r :
  HInv h g -> lg_ok g t (ALinPast r) -> HInv h (lg_step g t (ALinPast r)).
Proof.
  intros (H & He & Hr & Hs) Hok. simpl in *.
  destruct (g_th g !! t) as [[o seen0|r0]|] eqn:Ht; try (by exists H).
  destruct (Hok _ _ eq_refl) as (s & Hin & Hsp).
  destruct (Hs _ _ _ _ Ht Hin) as (H1 & H2 & th1 & -> & Hni & Hr1 & Hl1).
  apply replay_app_inv in Hr as (st1 & Hr1' & Hr2). rewrite Hr1 in Hr1'. inversion Hr1'; subst st1.
  assert (replay1 (s, th1) (MLin t) = Some (s, <[t := SLin r]> th1)) as Hstep.
  { simpl. by rewrite Hl1, Hsp. }
  exists (H1 ++ MLin t :: H2). split; [|split].
  - rewrite <-He, !erase_app. done.
  - rewrite replay_app, Hr1. cbn [replay]. rewrite Hstep.
    unfold stat. simpl. rewrite fmap_insert. simpl. by apply replay_frame.
  - simpl. intros t' o' seen s' Hl Hin'.
    destruct (decide (t' = t)) as [->|Hne]; [by rewrite lookup_insert in Hl|].
    rewrite lookup_insert_ne in Hl by done.
    destruct (Hs _ _ _ _ Hl Hin') as (A & B & thA & HAB & HniB & HrA & HlA).
    apply app_eq_inv in HAB as [(l & -> & ->)|(l & -> & ->)].
    + (* the checkpoint of t' lies before the inserted mark *)
      exists A, (l ++ MLin t :: H2), thA. split; [by rewrite <-app_assoc|].
      split; [|done]. apply not_in_app in HniB as [? ?]. apply not_in_app. split; [done|].
      constructor; [simpl; congruence|done].
    + (* ... or after it *)
      apply not_in_app in Hni as [Hnl _].
      apply replay_app_inv in HrA as (st1 & HrA1 & HrA2). rewrite Hr1 in HrA1.
      inversion HrA1; subst st1.
      exists (H1 ++ MLin t :: l), B, (<[t := SLin r]> thA).
      split; [by rewrite <-app_assoc|]. split; [done|]. split.
      * rewrite replay_app, Hr1. cbn [replay]. rewrite Hstep. by apply replay_frame.
      * by rewrite lookup_insert_ne.
Qed.

Lemma HInv_step h g t a :
  HInv h g -> lg_ok g t a -> HInv (h ++ ann_events t a) (lg_step g t a).
Proof.
  intros Hi Hok. destruct a; simpl ann_events; rewrite ?app_nil_r.
  - done.
  - by apply HInv_inv.
  - by apply HInv_ret.
  - by apply HInv_lin.
  - by apply HInv_linpast.
Qed.

Lemma HInv_init : HInv [] {| g_abs := ∅; g_th := ∅ |}.
Proof.
  exists []. split; [done|]. split; [by unfold stat; simpl; rewrite fmap_empty|].
  intros t o seen s Hl. simpl in Hl. by rewrite lookup_empty in Hl.
Qed.

Lemma HInv_linearizable h g : HInv h g -> linearizable h.
Proof. intros (H & He & Hr & _). exists H. split; [done|]. by rewrite Hr. Qed.

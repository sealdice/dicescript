(* Compiler correctness, continued: DICE TERMS `XdY` under min / max mode.

   Proofs/CompileArrays.v proves the reference compiler against the VM model for every statement and every expression,
   dice terms on the condition that a roll is one number whatever the generator state and the fuel (`roll_fixed`).
   Here that condition is proved for min / max mode, and the fragment and stack budget the results are stated over
   (`dice_expr`, `dneed`, `dice_stmt`, `dwneed`) are tied to the ones of the induction.

   What is special about a dice term on the VM:
     x ; dice.init ; dice.setTimes ; y ; mark.detail ; dice
   `dice.init` pushes a fresh dice state on the frame's DICE-STATE STACK, `dice.setTimes` pops x into it (x must be a
   positive int: otherwise EDice, BEFORE y is evaluated), y is evaluated with that state open (y may itself open and
   close further states), `dice` pops y (a positive int, otherwise EDice), adds `times` to the op counter, rolls and
   pops the dice state.  So the induction is over machines whose dice-state stack is ARBITRARY (`forall dice`), and the
   conclusion restores exactly that stack (framing).  Under min / max mode (`roll_mode cfg <> 0`) the roll draws nothing
   from the generator and does not depend on the fuel: the generator state is untouched and the number is the one
   `dice_sem` computes.  Under random mode the definition says `DUnsup` and nothing is claimed. *)
From Coq Require Import String Ascii NArith ZArith List Bool Lia.
From DS Require Import Model.Str Model.PCG Model.Roll Model.Dice Model.Value Model.VM Model.Ast Model.Denote Model.Compile
                       Proofs.DiceProofs Proofs.VMFacts Proofs.CompileFacts Proofs.CompileProofs Proofs.CompileArrays.
Import ListNotations.
Open Scope Z_scope.
Open Scope list_scope.   (* `++` on lists: importing Proofs.DiceProofs leaves string_scope on top *)

Fixpoint dice_expr (e : expr) : Prop :=
  match e with
  | EInt _ | EStr _ | ENull | ETrue | EFalse => True
  | EVar x => mem_s x builtin_names = false
  | EAssign _ e1 | EUn _ e1 => dice_expr e1
  | EBin _ l r | EOr l r | EIdx l r | ERoll l r => dice_expr l /\ dice_expr r
  | ETern c a b => dice_expr c /\ dice_expr a /\ dice_expr b
  | EArr l => (fix go (l : list expr) : Prop := match l with [] => True | x :: r => dice_expr x /\ go r end) l
  end.
Fixpoint dice_items (l : list expr) : Prop := match l with [] => True | x :: r => dice_expr x /\ dice_items r end.

(* operand-stack slots an expression needs above the current top.  For XdY: x is popped by dice.setTimes before y is
   evaluated, so the two operands do not add up *)
Fixpoint dneed (e : expr) : Z :=
  match e with
  | EAssign _ e1 | EUn _ e1 => dneed e1
  | EBin _ l r | EIdx l r => Z.max (dneed l) (1 + dneed r)
  | EOr l r | ERoll l r => Z.max (dneed l) (dneed r)
  | ETern c a b => Z.max (dneed c) (Z.max (dneed a) (dneed b))
  | EArr l => Z.max 1 ((fix go (l : list expr) : Z := match l with [] => 0 | x :: r => Z.max (dneed x) (1 + go r) end) l)
  | _ => 1
  end.

(* The fragment of the induction of CompileArrays, given what it asks of a roll.  The budgets need no lemma: `dneed` and
   `dwneed` are the Fixpoints `gneed` and `gwneed` of CompileArrays written out again (the results are stated
   over them), so they are convertible. *)
Lemma dice_gexpr : forall (D : Prop) e, D -> dice_expr e -> gexpr D e.
Proof.
  intros D e HD; induction e using expr_ind'; cbn [dice_expr gexpr]; intros Hc; try exact Hc; auto;
    try (repeat match goal with H : _ /\ _ |- _ => destruct H end; repeat split; auto; fail).
  change (dice_items l) in Hc. change (gitems D l).
  induction H as [|x r Hx Hr IH]; cbn [dice_items gitems] in *; [exact Logic.I|].
  destruct Hc; split; auto.
Qed.

Fixpoint dice_stmt (s : stmt) : Prop :=
  match s with
  | SNop | SBreak | SContinue => True
  | SExpr e => dice_expr e
  | SSeq a b => dice_stmt a /\ dice_stmt b
  | SIf c t e => dice_expr c /\ dice_stmt t /\ dice_stmt e
  | SWhile c b => dice_expr c /\ dice_stmt b
  end.
(* operand-stack slots a statement needs when every execution of a loop makes at most n iterations
   (CompileArrays.wneed over dneed) *)
Fixpoint dwneed (n : Z) (s : stmt) : Z :=
  match s with
  | SNop => 0
  | SExpr e => dneed e
  | SSeq a b => Z.max (dwneed n a) (wleaves a + dwneed n b)
  | SIf c t e => Z.max 2 (Z.max (dneed c) (Z.max (dwneed n t) (dwneed n e)))
  | SWhile c b => n * wleaves b + Z.max 1 (Z.max (dneed c) (dwneed n b))
  | SBreak | SContinue => 2
  end.

Lemma dice_gstmt : forall (D : Prop) s, D -> dice_stmt s -> gstmt D s.
Proof.
  intros D s HD; induction s; cbn [dice_stmt gstmt]; intros H; try exact H; try (apply dice_gexpr; assumption).
  - destruct H; split; auto.
  - destruct H as [H0 [H1 H2]]; repeat split; auto using dice_gexpr.
  - destruct H as [H0 H1]; split; auto using dice_gexpr.
Qed.
Lemma roll_common_mode : forall cfg, roll_fixed cfg.
Proof.
  intros cfg times sides Hm Ht Hs. unfold roll_mode in *.
  destruct (cfg_min_mode cfg).
  - eexists _, _. intros fuel s. rewrite roll_common_min_gen by exact Ht. reflexivity.
  - destruct (cfg_max_mode cfg); [|congruence].
    eexists _, _. intros fuel s. rewrite roll_common_max by exact Ht. reflexivity.
Qed.

(* Every statement of Model/Ast.v (while / break / continue included) and EVERY expression, dice terms included.
   Same shape as CompileArrays.compile_correct_loops (`prog_post_arr`): the final state is again related to the final
   environment, so the statement composes over histories of programs on one VM, including after failed ones.
   For a program that reaches a dice term the definition gives a value / an error exactly under min or max mode
   (`DUnsup "random dice"` otherwise), so that is where the theorem says something about dice. *)
Theorem compile_correct_dice_loops_stable : forall p fuel, dice_stmt p -> dwneed (Z.of_nat fuel) p <= 999 -> wbneed p <= 20 ->
  forall cfg ftab env src st,
    cfg_op_limit cfg = 0 -> erel (vs_heap st) env (vars_of_state st) ->
    prog_post_arr cfg ftab fuel p env src st.
Proof.
  intros p fuel Hp Hn Hb cfg ftab env src st Hlim Henv.
  apply compile_correct_gen; auto using dice_gstmt, roll_common_mode.   (* the budget: dwneed is convertible with gwneed *)
Qed.

Theorem compile_correct_dice_loops : forall p fuel, dice_stmt p -> dwneed (Z.of_nat fuel) p <= 999 -> wbneed p <= 20 ->
  forall cfg ftab env src st,
    cfg_op_limit cfg = 0 -> erel (vs_heap st) env (vars_of_state st) ->
    match denote fuel cfg p env with
    | DVal v env' =>
      exists fuel' st' vv, run fuel' {| e_ftab := ftab; e_cfg := cfg |} (compile p) src st = Val vv st'
                           /\ arel (vs_heap st') v vv /\ erel (vs_heap st') env' (vars_of_state st')
                           /\ vs_attrs st' = vs_attrs st /\ heap_le (vs_heap st) (vs_heap st')
    | DErr c env' =>
      exists fuel' st', run fuel' {| e_ftab := ftab; e_cfg := cfg |} (compile p) src st = Err c st'
                        /\ erel (vs_heap st') env' (vars_of_state st')
    | DOutOfFuel | DUnsup _ => True
    end.
Proof. intros. apply prog_post_arr_run, compile_correct_dice_loops_stable; assumption. Qed.

Theorem compile_correct_dice_expr :
  forall (E : env), cfg_op_limit (e_cfg E) = 0 ->
  forall prog wod dc src pcg0 st0 attrs e, dice_expr e ->
  forall dice env pc live blocks h j,
    code_at prog pc (compile_expr e) -> erel h env (get_map attrs h) -> zlen live + dneed e <= 999 ->
    match dexpr (e_cfg E) e env with
    | EV v env' =>
      exists vv h' j', stepsK E (M prog dice wod dc src pcg0 st0 attrs pc live blocks h j)
                                (M prog dice wod dc src pcg0 st0 attrs (pc + zlen (compile_expr e)) (vv :: live) blocks h' j')
                       /\ arel h' v vv /\ erel h' env' (get_map attrs h') /\ heap_le h h'
    | EE c env' => failsR E (M prog dice wod dc src pcg0 st0 attrs pc live blocks h j) c env'
    | EU _ => True
    end.
Proof.
  intros E Hlim prog wod dc src pcg0 st0 attrs e He dice env pc live blocks h j Hat Henv Hneed.
  exact (gexpr_correct E Hlim prog wod dc src pcg0 st0 attrs e dice (dice_gexpr _ e (roll_common_mode _) He)
                       env pc _ live blocks h j Hat eq_refl Henv Hneed).
Qed.

Lemma dexpr_roll_value_mode : forall cfg x y env v env', dexpr cfg (ERoll x y) env = EV v env' -> roll_mode cfg <> 0.
Proof.
  intros cfg x y env v env' H Hm. rewrite dexpr_roll in H.
  destruct (dexpr cfg x env) as [[t| | |] env1| |]; try discriminate.
  destruct (t <=? 0); try discriminate.
  destruct (dexpr cfg y env1) as [b env2| |]; try discriminate.
  unfold roll_sem, dice_sem in H. rewrite Hm in H. cbn [Z.eqb] in H.
  destruct b as [s| | |]; try discriminate. destruct (s <=? 0); discriminate.
Qed.

(* compile_correct_loops_stable of CompileArrays under the name the dice theorem gives its special case *)
Corollary compile_correct_loops_from_dice : forall p fuel, loop_stmt p -> wneed (Z.of_nat fuel) p <= 999 -> wbneed p <= 20 ->
  forall cfg ftab env src st,
    cfg_op_limit cfg = 0 -> erel (vs_heap st) env (vars_of_state st) ->
    prog_post_arr cfg ftab fuel p env src st.
Proof. exact compile_correct_loops_stable. Qed.

Definition cfg_max : config :=
  {| cfg_ignore_div0 := false; cfg_min_mode := false; cfg_max_mode := true; cfg_op_limit := 0;
     cfg_def_expr_empty := true; cfg_st_callback := false |}.
Definition cfg_min : config :=
  {| cfg_ignore_div0 := false; cfg_min_mode := true; cfg_max_mode := false; cfg_op_limit := 0;
     cfg_def_expr_empty := true; cfg_st_callback := false |}.

(* x = 2d6 + 3d(1+1) ; [1d4, 2d(3d2), x]  — nested dice, dice inside an array literal *)
Definition example_dice : stmt :=
  SSeq (SExpr (EAssign "x" (EBin BAdd (ERoll (EInt 2) (EInt 6)) (ERoll (EInt 3) (EBin BAdd (EInt 1) (EInt 1))))))
       (SExpr (EArr [ERoll (EInt 1) (EInt 4); ERoll (EInt 2) (ERoll (EInt 3) (EInt 2)); EVar "x"])).
Example example_dice_ok :
  dice_stmt example_dice /\ dwneed 0 example_dice <= 999 /\ wbneed example_dice <= 20 /\
  denote 0 cfg_max example_dice [] = DVal (DvArr [DvInt 4; DvInt 12; DvInt 18]) [("x"%string, DvInt 18)] /\
  denote 0 cfg_min example_dice [] = DVal (DvArr [DvInt 1; DvInt 2; DvInt 5]) [("x"%string, DvInt 5)] /\
  denote 0 cfg0 example_dice [] = DUnsup "random dice".
Proof. repeat split; vm_compute; try reflexivity; discriminate. Qed.

Example example_dice_run_max :
  exists fuel' st' vv, run fuel' {| e_ftab := []; e_cfg := cfg_max |} (compile example_dice) "" st_init = Val vv st'
                       /\ arel (vs_heap st') (DvArr [DvInt 4; DvInt 12; DvInt 18]) vv
                       /\ erel (vs_heap st') [("x"%string, DvInt 18)] (vars_of_state st').
Proof.
  destruct example_dice_ok as [H1 [H2 [H3 [H4 _]]]].
  pose proof (compile_correct_dice_loops example_dice 0%nat H1 H2 H3 cfg_max [] [] ""%string st_init eq_refl erel_init) as X.
  rewrite H4 in X. destruct X as [f [st' [vv [Hr [Hv [He _]]]]]]. exists f, st', vv. repeat split; assumption.
Qed.
Example example_dice_run_min :
  exists fuel' st' vv, run fuel' {| e_ftab := []; e_cfg := cfg_min |} (compile example_dice) "" st_init = Val vv st'
                       /\ arel (vs_heap st') (DvArr [DvInt 1; DvInt 2; DvInt 5]) vv.
Proof.
  destruct example_dice_ok as [H1 [H2 [H3 [_ [H4 _]]]]].
  pose proof (compile_correct_dice_loops example_dice 0%nat H1 H2 H3 cfg_min [] [] ""%string st_init eq_refl erel_init) as X.
  rewrite H4 in X. destruct X as [f [st' [vv [Hr [Hv _]]]]]. exists f, st', vv. split; assumption.
Qed.

(* i = 0 ; while i < 3 { i = i + 1d1 } ; i * 10d(2d5)  — dice in a loop body, nested dice after the loop *)
Definition example_dice_loop : stmt :=
  SSeq (SExpr (EAssign "i" (EInt 0)))
  (SSeq (SWhile (EBin BLt (EVar "i") (EInt 3)) (SExpr (EAssign "i" (EBin BAdd (EVar "i") (ERoll (EInt 1) (EInt 1))))))
        (SExpr (EBin BMul (EVar "i") (ERoll (EInt 10) (ERoll (EInt 2) (EInt 5)))))).
Example example_dice_loop_ok :
  dice_stmt example_dice_loop /\ dwneed (Z.of_nat 5) example_dice_loop <= 999 /\ wbneed example_dice_loop <= 20 /\
  denote 5 cfg_max example_dice_loop [] = DVal (DvInt 300) [("i"%string, DvInt 3)].
Proof. repeat split; vm_compute; try reflexivity; discriminate. Qed.
Example example_dice_loop_run :
  exists fuel' st', run fuel' {| e_ftab := []; e_cfg := cfg_max |} (compile example_dice_loop) "" st_init = Val (VInt 300) st'.
Proof.
  destruct example_dice_loop_ok as [H1 [H2 [H3 H4]]].
  pose proof (compile_correct_dice_loops example_dice_loop 5%nat H1 H2 H3 cfg_max [] [] ""%string st_init eq_refl erel_init) as X.
  rewrite H4 in X. destruct X as [f [st' [vv [Hr [Hv _]]]]]. inversion Hv; subst. exists f, st'. exact Hr.
Qed.

(* errors: the first operand is checked BEFORE the second one is evaluated (a stays 5); the second one after it was
   evaluated (a becomes 2); a non-int operand is the same "illegal dice parameter" *)
Definition example_dice_err1 : stmt := SSeq (SExpr (EAssign "a" (EInt 5))) (SExpr (ERoll (EInt 0) (EAssign "a" (EInt 6)))).
Definition example_dice_err2 : stmt := SSeq (SExpr (EAssign "a" (EInt 5))) (SExpr (ERoll (EAssign "a" (EInt 2)) (EStr "x"))).
Example example_dice_err_ok :
  dice_stmt example_dice_err1 /\ dwneed 0 example_dice_err1 <= 999 /\ wbneed example_dice_err1 <= 20 /\
  dice_stmt example_dice_err2 /\ dwneed 0 example_dice_err2 <= 999 /\ wbneed example_dice_err2 <= 20 /\
  denote 0 cfg_max example_dice_err1 [] = DErr EDice [("a"%string, DvInt 5)] /\
  denote 0 cfg_max example_dice_err2 [] = DErr EDice [("a"%string, DvInt 2)].
Proof. repeat split; vm_compute; try reflexivity; discriminate. Qed.
Example example_dice_err_run :
  (exists fuel' st', run fuel' {| e_ftab := []; e_cfg := cfg_max |} (compile example_dice_err1) "" st_init = Err EDice st'
                     /\ erel (vs_heap st') [("a"%string, DvInt 5)] (vars_of_state st')) /\
  (exists fuel' st', run fuel' {| e_ftab := []; e_cfg := cfg_max |} (compile example_dice_err2) "" st_init = Err EDice st'
                     /\ erel (vs_heap st') [("a"%string, DvInt 2)] (vars_of_state st')).
Proof.
  destruct example_dice_err_ok as [A1 [A2 [A3 [B1 [B2 [B3 [D1 D2]]]]]]]. split.
  - pose proof (compile_correct_dice_loops example_dice_err1 0%nat A1 A2 A3 cfg_max [] [] ""%string st_init eq_refl erel_init) as X.
    rewrite D1 in X. exact X.
  - pose proof (compile_correct_dice_loops example_dice_err2 0%nat B1 B2 B3 cfg_max [] [] ""%string st_init eq_refl erel_init) as X.
    rewrite D2 in X. exact X.
Qed.

Print Assumptions compile_correct_dice_expr.
Print Assumptions compile_correct_dice_loops_stable.
Print Assumptions compile_correct_dice_loops.
Print Assumptions compile_correct_loops_from_dice.
Print Assumptions example_dice_run_max.
Print Assumptions example_dice_loop_run.
Print Assumptions example_dice_err_run.

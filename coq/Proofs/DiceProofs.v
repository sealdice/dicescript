(* Theorems about Model/Dice.v.  roll_many is k draws of a die (draws), and a loop that feeds one
   die per iteration into an accumulator is a fold over such draws (fold_draws; used for the rounds
   of WoD / Double Cross in PoolText.v; the Fate and CoC loops are treated by direct induction).
   RollCommon: legality of the dice, sort / keep-drop structure, exact sums, min/max
   modes and the bracket between them (C15), the text determines the dice.  Fate and CoC: closed
   forms and modes.  WoD / Double Cross: the arithmetic of a chain of rounds (the loops
   themselves are in PoolText.v).  Last, what the detail text shows next to a value. *)
From Coq Require Import String Ascii NArith ZArith List Bool Lia Permutation Sorted.
From DS Require Import Model.PCG Model.Roll Model.Str Model.Dice Proofs.StrFacts Proofs.RollProofs.
Import ListNotations.
Open Scope string_scope.
Open Scope Z_scope.

Definition coc_val (t u : Z) : Z := if (t =? 0) && (u =? 0) then 100 else 10 * t + u.

Fixpoint count_char (c : ascii) (s : string) : Z :=
  match s with
  | EmptyString => 0
  | String a r => (if Ascii.eqb a c then 1 else 0) + count_char c r
  end.

Definition fate_char (a : ascii) : Prop := a = "+"%char \/ a = "-"%char \/ a = "0"%char.

Definition countZ (f : Z -> bool) (l : list Z) : Z := Z.of_nat (length (filter f l)).
Definition wod_reach (addLine x : Z) : bool := negb (addLine =? 0) && (addLine <=? x).
Definition wod_succ (threshold : Z) (isGE : bool) (x : Z) : bool :=
  if isGE then threshold <=? x else x <=? threshold.
Definition dc_reach (addLine x : Z) : bool := addLine <=? x.
(* maxDice update of RollDoubleCross for one die *)
Definition dc_mx_step (addLine mx one : Z) : Z := if addLine <=? one then 10 else Z.max mx one.
Definition dc_round_max (addLine : Z) (r : list Z) : Z := fold_left (dc_mx_step addLine) r 0.
Definition dice_max (r : list Z) : Z := fold_left Z.max r 0.

Inductive round_chain (reach : Z -> bool) : nat -> list (list Z) -> Prop :=
| chain_last n r : length r = n -> filter reach r = [] -> round_chain reach n [r]
| chain_more n r rs : length r = n -> filter reach r <> [] ->
                      round_chain reach (length (filter reach r)) rs ->
                      round_chain reach n (r :: rs).

Lemma wrap64_small z : - two63 <= z < two63 -> wrap64 z = z.
Proof.
  intros H. unfold wrap64. unfold two63, two64 in *.
  rewrite Z.mod_small by lia. lia.
Qed.

Lemma wrap64_nonneg z : 0 <= z < two63 -> wrap64 z = z.
Proof. intros H. apply wrap64_small. unfold two63 in *. lia. Qed.

Lemma Forall_firstn {A} (P : A -> Prop) n l : Forall P l -> Forall P (firstn n l).
Proof. intros H. rewrite <- (firstn_skipn n l) in H. apply Forall_app in H. apply H. Qed.

Lemma firstn_repeat {A} (c : A) n m : (n <= m)%nat -> firstn n (repeat c m) = repeat c n.
Proof.
  revert m. induction n as [|n IH]; intros m H; [reflexivity|].
  destruct m as [|m]; [lia|]. cbn [repeat firstn]. f_equal. apply IH. lia.
Qed.

Lemma Forall_repeat {A} (P : A -> Prop) (c : A) n : P c -> Forall P (repeat c n).
Proof. intros H. induction n; cbn [repeat]; constructor; assumption. Qed.

Lemma map_repeat {A B} (f : A -> B) c n : map f (repeat c n) = repeat (f c) n.
Proof. induction n as [|n IH]; cbn [repeat map]; [reflexivity|]. rewrite IH. reflexivity. Qed.

Lemma sum_repeat c n : fold_right Z.add 0 (repeat c n) = Z.of_nat n * c.
Proof. induction n as [|n IH]; cbn [repeat fold_right]; [lia|]. rewrite IH. lia. Qed.

Lemma sum_bounds lo hi l :
  Forall (fun x => lo <= x <= hi) l ->
  Z.of_nat (length l) * lo <= fold_right Z.add 0 l <= Z.of_nat (length l) * hi.
Proof.
  induction 1 as [|x r Hx Hr IH]; cbn [length fold_right]; [lia|].
  rewrite Nat2Z.inj_succ. lia.
Qed.

Lemma clampdie_mono dmin dmax a b : a <= b -> clampdie dmin dmax a <= clampdie dmin dmax b.
Proof.
  intros H. unfold clampdie. destruct dmax as [mx|]; destruct dmin as [mn|];
    try (destruct (Z.ltb_spec mx a); destruct (Z.ltb_spec mx b));
    repeat match goal with |- context [?x <? ?y] => destruct (Z.ltb_spec x y) end; lia.
Qed.

Section Source.
  Variable S : Type.
  Variable next : S -> N * S.
  Hypothesis next_word : forall s, (fst (next s) < W64)%N.

  Fixpoint draws (die : S -> outcome (Z * S)) (k : nat) (s : S) : outcome (list Z * S) :=
    match k with
    | O => Done ([], s)
    | Datatypes.S k' =>
      match die s with
      | OutOfFuel => OutOfFuel
      | Done (x, s1) =>
        match draws die k' s1 with
        | OutOfFuel => OutOfFuel
        | Done (l, s2) => Done (x :: l, s2)
        end
      end
    end.

  Definition fold_draws {A} (die : S -> outcome (Z * S)) (step : A -> Z -> A) (k : nat) (acc : A) (s : S)
    : outcome (A * S) :=
    match draws die k s with
    | Done (l, s') => Done (fold_left step l acc, s')
    | OutOfFuel => OutOfFuel
    end.

  Lemma draws_all (P : Z -> Prop) die :
    (forall s x s', die s = Done (x, s') -> P x) ->
    forall k s l s', draws die k s = Done (l, s') -> length l = k /\ Forall P l.
  Proof.
    intros Hdie. induction k as [|k IH]; intros s l s' H; cbn [draws] in H.
    - injection H as <- _. split; [reflexivity|constructor].
    - destruct (die s) as [[x s1]|] eqn:Ed; [|discriminate].
      destruct (draws die k s1) as [[r s2]|] eqn:Er; [|discriminate].
      injection H as <- _. destruct (IH _ _ _ Er) as [HL HF].
      split; [cbn [length]; f_equal; exact HL|]. constructor; [exact (Hdie _ _ _ Ed)|exact HF].
  Qed.

  Lemma draws_const die c :
    (forall s, die s = Done (c, s)) -> forall k s, draws die k s = Done (repeat c k, s).
  Proof.
    intros Hdie. induction k as [|k IH]; intros s; cbn [draws repeat]; [reflexivity|].
    rewrite Hdie, IH. reflexivity.
  Qed.

  Lemma fold_draws_loop {A} die (step : A -> Z -> A) (loop : nat -> A -> S -> outcome (A * S)) :
    (forall acc s, loop O acc s = Done (acc, s)) ->
    (forall k acc s, loop (Datatypes.S k) acc s =
                     match die s with OutOfFuel => OutOfFuel | Done (x, s1) => loop k (step acc x) s1 end) ->
    forall k acc s, loop k acc s = fold_draws die step k acc s.
  Proof.
    intros H0 HS. unfold fold_draws. induction k as [|k IH]; intros acc s; cbn [draws]; [apply H0|].
    rewrite HS. destruct (die s) as [[x s1]|]; [|reflexivity].
    rewrite IH. destruct (draws die k s1) as [[l s2]|]; reflexivity.
  Qed.

  Lemma roll_draws_legal fuel d mode k s l s' :
    1 <= d <= MaxInt64 - 1 ->
    draws (roll next fuel d mode) k s = Done (l, s') -> length l = k /\ Forall (fun x => 1 <= x <= d) l.
  Proof.
    intros Hd. apply draws_all. intros s0 x s1. apply (roll_range S next next_word). exact Hd.
  Qed.

  Definition legal_die (d : Z) (dmin dmax : option Z) (x : Z) : Prop :=
    exists raw, 1 <= raw <= d /\ x = clampdie dmin dmax raw.

  Lemma roll_many_draws fuel k d mode dmin dmax : forall s,
    roll_many next fuel k d mode dmin dmax s =
    match draws (roll next fuel d mode) k s with
    | Done (l, s') => Done (map (clampdie dmin dmax) l, s')
    | OutOfFuel => OutOfFuel
    end.
  Proof.
    induction k as [|k IH]; intros s; cbn [roll_many draws]; [reflexivity|].
    destruct (roll next fuel d mode s) as [[x s1]|]; [|reflexivity].
    rewrite IH. destruct (draws (roll next fuel d mode) k s1) as [[l s2]|]; reflexivity.
  Qed.

  Theorem roll_many_legal fuel k d mode dmin dmax s l s' :
    1 <= d <= MaxInt64 - 1 ->
    roll_many next fuel k d mode dmin dmax s = Done (l, s') ->
    length l = k /\
    Forall (fun x => exists raw, 1 <= raw <= d /\ x = clampdie dmin dmax raw) l.
  Proof.
    intros Hd H. rewrite roll_many_draws in H.
    destruct (draws (roll next fuel d mode) k s) as [[raws s1]|] eqn:Er; [|discriminate].
    injection H as <- _. destruct (roll_draws_legal _ _ _ _ _ _ _ Hd Er) as [HL HF].
    split; [rewrite map_length; exact HL|]. apply Forall_map.
    eapply Forall_impl; [|exact HF]. intros raw Hr. exists raw. split; [exact Hr|reflexivity].
  Qed.

  Lemma insert_by_perm le x l : Permutation (insert_by le x l) (x :: l).
  Proof.
    induction l as [|y r IH]; cbn [insert_by]; [apply Permutation_refl|].
    destruct (le x y); [apply Permutation_refl|].
    eapply Permutation_trans; [apply perm_skip; exact IH|apply perm_swap].
  Qed.

  Theorem sort_by_perm le l : Permutation (sort_by le l) l.
  Proof.
    induction l as [|x r IH]; cbn [sort_by]; [constructor|].
    eapply Permutation_trans; [apply insert_by_perm|apply perm_skip; exact IH].
  Qed.

  Section SortGen.
    Variable le : Z -> Z -> bool.
    Variable R : Z -> Z -> Prop.
    Hypothesis R_trans : forall x y z, R x y -> R y z -> R x z.
    Hypothesis le_true : forall x y, le x y = true -> R x y.
    Hypothesis le_false : forall x y, le x y = false -> R y x.

    Lemma insert_by_ssorted x l : StronglySorted R l -> StronglySorted R (insert_by le x l).
    Proof.
      induction 1 as [|y r Hs IH Hf]; cbn [insert_by].
      - constructor; constructor.
      - destruct (le x y) eqn:E.
        + constructor; [constructor; assumption|].
          constructor; [apply le_true; exact E|].
          eapply Forall_impl; [|exact Hf]. intros z Hz. eapply R_trans; [apply le_true; exact E|exact Hz].
        + constructor; [exact IH|].
          eapply Permutation_Forall; [apply Permutation_sym, insert_by_perm|].
          constructor; [apply le_false; exact E|exact Hf].
    Qed.

    Lemma sort_by_ssorted l : StronglySorted R (sort_by le l).
    Proof.
      induction l as [|x r IH]; cbn [sort_by]; [constructor|].
      apply insert_by_ssorted; exact IH.
    Qed.
  End SortGen.

  Theorem sort_by_leb_ssorted l : StronglySorted Z.le (sort_by Z.leb l).
  Proof.
    apply sort_by_ssorted.
    - intros x y z; lia.
    - intros x y H; lia.
    - intros x y H; lia.
  Qed.

  Theorem sort_by_geb_ssorted l : StronglySorted Z.ge (sort_by Z.geb l).
  Proof.
    apply sort_by_ssorted.
    - intros x y z; lia.
    - intros x y H; rewrite Z.geb_leb in H; lia.
    - intros x y H; rewrite Z.geb_leb in H; lia.
  Qed.

  Theorem sort_by_leb_sorted l : Sorted Z.le (sort_by Z.leb l).
  Proof. apply StronglySorted_Sorted, sort_by_leb_ssorted. Qed.

  Theorem sort_by_geb_sorted l : Sorted Z.ge (sort_by Z.geb l).
  Proof. apply StronglySorted_Sorted, sort_by_geb_ssorted. Qed.

  Lemma ssorted_firstn_skipn (R : Z -> Z -> Prop) l :
    StronglySorted R l ->
    forall p x y, In x (firstn p l) -> In y (skipn p l) -> R x y.
  Proof.
    induction 1 as [|a r Hs IH Hf]; intros p x y Hx Hy.
    - destruct p; cbn in Hx; contradiction.
    - destruct p as [|p]; cbn [firstn skipn] in *; [contradiction|].
      destruct Hx as [<-|Hx].
      + rewrite Forall_forall in Hf. apply Hf.
        rewrite <- (firstn_skipn p r). apply in_or_app. right; exact Hy.
      + eapply IH; eassumption.
  Qed.

  Theorem pick_num_range times keep lowNum highNum :
    0 <= times -> 0 <= pick_num times keep lowNum highNum <= times.
  Proof.
    intros Ht. unfold pick_num.
    destruct (keep =? 0); [lia|].
    generalize (if (keep =? 1) || (keep =? 3) then lowNum
                else if (keep =? 2) || (keep =? 4) then highNum else times).
    intros p0.
    generalize (if 2 <? keep then wrap64 (times - p0) else p0). intros p1.
    destruct (Z.ltb_spec p1 0).
    - destruct (Z.ltb_spec times 0); lia.
    - destruct (Z.ltb_spec times p1); lia.
  Qed.

  Lemma sum64_acc l : forall a B,
    Forall (fun x => - B <= x <= B) l ->
    Z.abs a + Z.of_nat (length l) * B < two63 ->
    fold_left (fun a x => wrap64 (a + x)) l a = a + fold_right Z.add 0 l.
  Proof.
    induction l as [|x r IH]; intros a B HF Hb; cbn [fold_left fold_right length] in *; [lia|].
    inversion HF as [|x' r' Hx Hr]; subst.
    assert (HB : 0 <= Z.of_nat (length r) * B) by nia.
    rewrite Nat2Z.inj_succ in Hb.
    rewrite wrap64_small by lia.
    rewrite (IH (a + x) B Hr) by lia. lia.
  Qed.

  Theorem sum64_exact_abs B l :
    Forall (fun x => - B <= x <= B) l ->
    Z.of_nat (length l) * B < two63 ->
    sum64 l = fold_right Z.add 0 l.
  Proof.
    intros HF Hb. unfold sum64. rewrite (sum64_acc l 0 B HF) by (cbn [Z.abs]; lia). lia.
  Qed.

  Theorem sum64_exact B l :
    Forall (fun x => 0 <= x <= B) l ->
    Z.of_nat (length l) * B < two63 ->
    sum64 l = fold_right Z.add 0 l.
  Proof.
    intros HF Hb. apply (sum64_exact_abs B); [|exact Hb].
    eapply Forall_impl; [|exact HF]. cbv beta. intros x Hx. lia.
  Qed.

  Lemma sorted_nums_perm keep l : Permutation (sorted_nums keep l) l.
  Proof.
    unfold sorted_nums. destruct (keep =? 0); [apply Permutation_refl|].
    destruct ((keep =? 1) || (keep =? 4)); apply sort_by_perm.
  Qed.

  Theorem roll_common_legal fuel times d dmin dmax keep lowNum highNum mode s num txt s' :
    0 <= times -> 1 <= d <= MaxInt64 - 1 ->
    roll_common next fuel times d dmin dmax keep lowNum highNum mode s = Done ((num, txt), s') ->
    exists draws shown : list Z,
      roll_many next fuel (Z.to_nat times) d mode dmin dmax s = Done (draws, s') /\
      Permutation shown draws /\
      Z.of_nat (length shown) = times /\
      Forall (fun x => exists raw, 1 <= raw <= d /\ x = clampdie dmin dmax raw) shown /\
      (keep = 0 -> shown = draws) /\
      (keep = 1 \/ keep = 4 -> StronglySorted Z.le shown) /\
      (keep = 2 \/ keep = 3 -> StronglySorted Z.ge shown) /\
      num = sum64 (firstn (Z.to_nat (pick_num times keep lowNum highNum)) shown) /\
      txt = common_text times (pick_num times keep lowNum highNum) shown.
  Proof.
    intros Ht Hd H. unfold roll_common in H.
    destruct (roll_many next fuel (Z.to_nat times) d mode dmin dmax s) as [[draws s1]|] eqn:Em;
      [|discriminate].
    cbv zeta in H. inversion H; subst. clear H.
    destruct (roll_many_legal _ _ _ _ _ _ _ _ _ Hd Em) as [HL HF].
    pose proof (sorted_nums_perm keep draws) as HP.
    exists draws, (sorted_nums keep draws).
    split; [reflexivity|]. split; [exact HP|].
    split; [rewrite (Permutation_length HP), HL; lia|].
    split; [eapply Permutation_Forall; [apply Permutation_sym; exact HP|exact HF]|].
    split; [intros ->; reflexivity|].
    split; [|split; [|split; reflexivity]].
    - intros [-> | ->]; cbn; apply sort_by_leb_ssorted.
    - intros [-> | ->]; cbn; apply sort_by_geb_ssorted.
  Qed.

  (* kl / dh keep the p smallest, kh / dl keep the p largest *)
  Theorem roll_common_keeps_extremes fuel times d dmin dmax keep lowNum highNum mode s num txt s' :
    0 <= times -> 1 <= d <= MaxInt64 - 1 ->
    roll_common next fuel times d dmin dmax keep lowNum highNum mode s = Done ((num, txt), s') ->
    exists draws shown : list Z,
      roll_many next fuel (Z.to_nat times) d mode dmin dmax s = Done (draws, s') /\
      Permutation shown draws /\
      num = sum64 (firstn (Z.to_nat (pick_num times keep lowNum highNum)) shown) /\
      (keep = 1 \/ keep = 4 ->
       forall x y, In x (firstn (Z.to_nat (pick_num times keep lowNum highNum)) shown) ->
                   In y (skipn (Z.to_nat (pick_num times keep lowNum highNum)) shown) -> x <= y) /\
      (keep = 2 \/ keep = 3 ->
       forall x y, In x (firstn (Z.to_nat (pick_num times keep lowNum highNum)) shown) ->
                   In y (skipn (Z.to_nat (pick_num times keep lowNum highNum)) shown) -> x >= y).
  Proof.
    intros Ht Hd H.
    destruct (roll_common_legal _ _ _ _ _ _ _ _ _ _ _ _ _ Ht Hd H)
      as (draws & shown & Hm & HP & Hlen & Hlegal & Hkeep0 & Hasc & Hdesc & Hnum & Htxt).
    exists draws, shown. repeat split; try assumption.
    - intros Hk x y. apply ssorted_firstn_skipn. apply Hasc; exact Hk.
    - intros Hk x y. apply (ssorted_firstn_skipn Z.ge). apply Hdesc; exact Hk.
  Qed.

  Lemma roll_many_min fuel k d dmin dmax s :
    roll_many next fuel k d (-1) dmin dmax s =
    Done (repeat (clampdie dmin dmax (if d =? 0 then 0 else 1)) k, s).
  Proof.
    rewrite roll_many_draws, (draws_const _ _ (fun s0 => roll_min_mode S next fuel d s0)), map_repeat.
    reflexivity.
  Qed.

  Lemma roll_many_max fuel k d dmin dmax s :
    roll_many next fuel k d 1 dmin dmax s = Done (repeat (clampdie dmin dmax d) k, s).
  Proof.
    rewrite roll_many_draws, (draws_const _ _ (fun s0 => roll_max_mode S next fuel d s0)), map_repeat.
    reflexivity.
  Qed.

  Lemma insert_by_repeat le c n : le c c = true -> insert_by le c (repeat c n) = c :: repeat c n.
  Proof. intros H. destruct n; cbn [repeat insert_by]; [reflexivity|]. rewrite H. reflexivity. Qed.

  Lemma sort_by_repeat le c n : le c c = true -> sort_by le (repeat c n) = repeat c n.
  Proof.
    intros H. induction n as [|n IH]; cbn [repeat sort_by]; [reflexivity|].
    rewrite IH. apply insert_by_repeat; exact H.
  Qed.

  Lemma sorted_nums_repeat keep c n : sorted_nums keep (repeat c n) = repeat c n.
  Proof.
    unfold sorted_nums. destruct (keep =? 0); [reflexivity|].
    destruct ((keep =? 1) || (keep =? 4)); apply sort_by_repeat.
    - apply Z.leb_refl.
    - rewrite Z.geb_leb. apply Z.leb_refl.
  Qed.

  Lemma roll_common_constant fuel times d dmin dmax keep lo hi mode s c :
    0 <= times ->
    roll_many next fuel (Z.to_nat times) d mode dmin dmax s = Done (repeat c (Z.to_nat times), s) ->
    roll_common next fuel times d dmin dmax keep lo hi mode s =
    Done ((sum64 (repeat c (Z.to_nat (pick_num times keep lo hi))),
           common_text times (pick_num times keep lo hi) (repeat c (Z.to_nat times))), s).
  Proof.
    (* min and max mode never draw: keep the closed lemma free of next_word, so that it applies to
       any source (C15 uses it so) *)
    clear next_word. intros Ht Hm. unfold roll_common. rewrite Hm. cbv zeta.
    rewrite sorted_nums_repeat.
    pose proof (pick_num_range times keep lo hi Ht) as Hp.
    rewrite firstn_repeat by lia. reflexivity.
  Qed.

  Theorem roll_common_min_gen fuel times d dmin dmax keep lo hi s :
    0 <= times ->
    roll_common next fuel times d dmin dmax keep lo hi (-1) s =
    Done ((sum64 (repeat (clampdie dmin dmax (if d =? 0 then 0 else 1))
                         (Z.to_nat (pick_num times keep lo hi))),
           common_text times (pick_num times keep lo hi)
                       (repeat (clampdie dmin dmax (if d =? 0 then 0 else 1)) (Z.to_nat times))), s).
  Proof. intros Ht. apply roll_common_constant; [exact Ht|apply roll_many_min]. Qed.

  Theorem roll_common_min fuel times d dmin dmax keep lo hi s :
    0 <= times -> 1 <= d ->
    roll_common next fuel times d dmin dmax keep lo hi (-1) s =
    Done ((sum64 (repeat (clampdie dmin dmax 1) (Z.to_nat (pick_num times keep lo hi))),
           common_text times (pick_num times keep lo hi)
                       (repeat (clampdie dmin dmax 1) (Z.to_nat times))), s).
  Proof.
    clear next_word. (* as in roll_common_constant *)
    intros Ht Hd. rewrite roll_common_min_gen by exact Ht.
    destruct (Z.eqb_spec d 0); [lia|reflexivity].
  Qed.

  Theorem roll_common_max fuel times d dmin dmax keep lo hi s :
    0 <= times ->
    roll_common next fuel times d dmin dmax keep lo hi 1 s =
    Done ((sum64 (repeat (clampdie dmin dmax d) (Z.to_nat (pick_num times keep lo hi))),
           common_text times (pick_num times keep lo hi)
                       (repeat (clampdie dmin dmax d) (Z.to_nat times))), s).
  Proof. intros Ht. apply roll_common_constant; [exact Ht|apply roll_many_max]. Qed.

  Lemma sum64_repeat c n : Z.of_nat n * Z.abs c < two63 -> sum64 (repeat c n) = Z.of_nat n * c.
  Proof.
    intros H. rewrite (sum64_exact_abs (Z.abs c)).
    - apply sum_repeat.
    - apply Forall_repeat. lia.
    - rewrite repeat_length. exact H.
  Qed.

  Lemma sum64_pick c t k lo hi :
    0 <= t -> t * Z.abs c < two63 ->
    sum64 (repeat c (Z.to_nat (pick_num t k lo hi))) = pick_num t k lo hi * c.
  Proof.
    intros Ht Hov. pose proof (pick_num_range t k lo hi Ht) as Hp.
    rewrite sum64_repeat by (rewrite Z2Nat.id by lia; nia). rewrite Z2Nat.id by lia. reflexivity.
  Qed.

  Theorem common_bracket fuel times d dmin dmax keep lo hi s num txt s' :
    let c1 := clampdie dmin dmax 1 in
    let cd := clampdie dmin dmax d in
    let p := pick_num times keep lo hi in
    0 <= times -> 1 <= d <= MaxInt64 - 1 ->
    times * Z.max (Z.abs c1) (Z.abs cd) < two63 ->
    roll_common next fuel times d dmin dmax keep lo hi 0 s = Done ((num, txt), s') ->
    p * c1 <= num <= p * cd /\
    (exists tmin, roll_common next fuel times d dmin dmax keep lo hi (-1) s = Done ((p * c1, tmin), s)) /\
    (exists tmax, roll_common next fuel times d dmin dmax keep lo hi 1 s = Done ((p * cd, tmax), s)).
  Proof.
    intros c1 cd p Ht Hd Hov H.
    pose proof (pick_num_range times keep lo hi Ht) as Hp. fold p in Hp.
    assert (HM : 0 <= Z.max (Z.abs c1) (Z.abs cd)) by lia.
    assert (Hpov : p * Z.max (Z.abs c1) (Z.abs cd) < two63) by nia.
    split; [|split].
    - destruct (roll_common_legal _ _ _ _ _ _ _ _ _ _ _ _ _ Ht Hd H)
        as (draws & shown & Hmany & Hperm & Hlen & HF & Hkeep0 & Hasc & Hdesc & Hnum & Htxt).
      fold p in Hnum.
      assert (HF' : Forall (fun x => c1 <= x <= cd) shown).
      { eapply Forall_impl; [|exact HF]. cbv beta. intros x [raw [Hr ->]].
        split; apply clampdie_mono; lia. }
      assert (HK : Forall (fun x => c1 <= x <= cd) (firstn (Z.to_nat p) shown))
        by (apply Forall_firstn; exact HF').
      assert (HlenK : Z.of_nat (length (firstn (Z.to_nat p) shown)) = p)
        by (rewrite firstn_length; lia).
      rewrite Hnum.
      rewrite (sum64_exact_abs (Z.max (Z.abs c1) (Z.abs cd))).
      + pose proof (sum_bounds c1 cd _ HK) as Hs. rewrite HlenK in Hs. exact Hs.
      + eapply Forall_impl; [|exact HK]. cbv beta. intros x Hx. lia.
      + rewrite HlenK. exact Hpov.
    - eexists. rewrite roll_common_min by lia. rewrite sum64_pick by nia. reflexivity.
    - eexists. rewrite roll_common_max by lia. rewrite sum64_pick by nia. reflexivity.
  Qed.

  Lemma sapp_length (a b : string) : String.length (a ++ b) = (String.length a + String.length b)%nat.
  Proof. exact (slen_app a b). Qed.

  Lemma fate_loop_spec fuel mode k : forall sum detail s sum' txt s',
    fate_loop next fuel k mode sum detail s = Done ((sum', txt), s') ->
    exists suf, txt = detail ++ suf /\ String.length suf = k /\
                Forall fate_char (list_ascii_of_string suf) /\
                sum' = sum + count_char "+" suf - count_char "-" suf /\
                sum - Z.of_nat k <= sum' <= sum + Z.of_nat k.
  Proof.
    induction k as [|k IH]; intros sum detail s sum' txt s' H; cbn [fate_loop] in H.
    - injection H as <- <- _. exists "". rewrite sapp_nil_r. repeat split; (constructor || (cbn; lia)).
    - destruct (roll next fuel 3 mode s) as [[r s1]|] eqn:Er; [|discriminate].
      assert (Hr : 1 <= r <= 3).
      { eapply (roll_range S next next_word); [|exact Er]. unfold MaxInt64. lia. }
      cbv zeta in H. apply IH in H. destruct H as (suf & Ht & Hl & Hc & Hs & Hb).
      rewrite sapp_assoc in Ht.
      assert (Hcases : r = 1 \/ r = 2 \/ r = 3) by lia.
      destruct Hcases as [-> | [-> | ->]]; cbn in Ht; (eexists; split; [exact Ht|]).
      all: cbn [append String.length list_ascii_of_string count_char Ascii.eqb Bool.eqb].
      all: rewrite Nat2Z.inj_succ, Hl.
      all: split; [reflexivity|]; split; [constructor; [unfold fate_char; auto|exact Hc]|]; lia.
  Qed.

  Theorem roll_fate_spec fuel mode s sum txt s' :
    roll_fate next fuel mode s = Done ((sum, txt), s') ->
    String.length txt = 4%nat /\
    Forall fate_char (list_ascii_of_string txt) /\
    sum = count_char "+" txt - count_char "-" txt /\
    -4 <= sum <= 4.
  Proof.
    unfold roll_fate. intros H. apply fate_loop_spec in H.
    destruct H as (suf & Ht & Hl & Hc & Hs & Hb). cbn [append] in Ht. subst txt.
    repeat split; try assumption; try lia.
  Qed.

  Theorem roll_fate_min fuel s : roll_fate next fuel (-1) s = Done ((-4, "----"), s).
  Proof. unfold roll_fate. cbn [fate_loop]. rewrite !roll_min_mode. reflexivity. Qed.

  Theorem roll_fate_max fuel s : roll_fate next fuel 1 s = Done ((4, "++++"), s).
  Proof. unfold roll_fate. cbn [fate_loop]. rewrite !roll_max_mode. reflexivity. Qed.

  (* The loop state (diceMin, diceMax, num10Exists) driven by the displayed digits: a tens die showing
     10 is displayed as digit 0 and only sets the flag; any other face c updates the running
     minimum a and maximum b.  a and b are tens values in 0..10: they start as the tens of the D100,
     which is 10 for a roll of 100 and 0 for a roll below 10. *)
  Definition coc_step (st : Z * Z * bool) (c : Z) : Z * Z * bool :=
    let '(a, b, ten) := st in
    if c =? 0 then (a, b, true)
    else ((if c <? a then c else a), (if b <? c then c else b), ten).

  Definition coc_bonus_val (u : Z) (st : Z * Z * bool) : Z :=
    let '(a, b, ten) := st in (if negb (u =? 0) && ten then 0 else a) * 10 + u.
  Definition coc_pen_val (u : Z) (st : Z * Z * bool) : Z :=
    let '(a, b, ten) := st in (if (u =? 0) && ten then 10 else b) * 10 + u.
  (* With units digit u, tens t stands for the value coc_val t u, where tens 0 with units 0 reads as
     100.  The result takes the flag into account: digit 0 is the best tens for a bonus unless u = 0
     (then it is the worst, 100), and the other way round for a penalty.  The invariant records where
     the tens can lie so that a * 10 + u and b * 10 + u are those values: with u = 0 the tens 0 never
     enters a or b (it is 100, carried by the flag, and the start value is then 1..10); with u <> 0
     the start value 10 is impossible (it only comes from a roll of 100). *)
  Definition coc_inv (u : Z) (st : Z * Z * bool) : Prop :=
    let '(a, b, ten) := st in
    0 <= a <= 10 /\ 0 <= b <= 10 /\ (u = 0 -> 1 <= a /\ 1 <= b) /\ (u <> 0 -> a <= 9 /\ b <= 9).

  Lemma coc_die_range fuel isBonus mode s n s1 :
    coc_die next fuel isBonus mode s = Done (n, s1) -> 1 <= n <= 10.
  Proof.
    unfold coc_die. destruct ((mode =? -1) && negb isBonus).
    - intros E; inversion E; lia.
    - intros E. eapply (roll_range S next next_word); [|exact E]. unfold MaxInt64. lia.
  Qed.

  Lemma coc_loop_digits fuel isBonus mode k : forall nums a b ten s nums' a' b' ten' s',
    coc_loop next fuel k isBonus mode (nums, a, b, ten) s = Done ((nums', a', b', ten'), s') ->
    exists digits : list Z,
      length digits = k /\
      Forall (fun c => 0 <= c <= 9) digits /\
      nums' = (nums ++ map show_Z digits)%list /\
      (a', b', ten') = fold_left coc_step digits (a, b, ten).
  Proof.
    induction k as [|k IH]; intros nums a b ten s nums' a' b' ten' s' H; cbn [coc_loop] in H.
    - inversion H; subst. exists []. cbn [length map fold_left]. rewrite app_nil_r.
      repeat split. constructor.
    - destruct (coc_die next fuel isBonus mode s) as [[n s1]|] eqn:Er; [|discriminate].
      pose proof (coc_die_range _ _ _ _ _ _ Er) as Hn.
      destruct (Z.eqb_spec n 10) as [E|E].
      + apply IH in H. destruct H as (ds & Hl & Hf & Hnums & Hst).
        exists (0 :: ds). split; [cbn [length]; f_equal; exact Hl|].
        split; [constructor; [lia|exact Hf]|].
        split.
        * rewrite Hnums. cbn [map]. rewrite <- app_assoc. reflexivity.
        * rewrite Hst. reflexivity.
      + apply IH in H. destruct H as (ds & Hl & Hf & Hnums & Hst).
        exists (n :: ds). split; [cbn [length]; f_equal; exact Hl|].
        split; [constructor; [lia|exact Hf]|].
        split.
        * rewrite Hnums. cbn [map]. rewrite <- app_assoc. reflexivity.
        * rewrite Hst. cbn [fold_left coc_step].
          destruct (Z.eqb_spec n 0); [lia|]. reflexivity.
  Qed.

  Lemma coc_val_range c u : 0 <= c <= 9 -> 0 <= u <= 9 -> 1 <= coc_val c u <= 100.
  Proof.
    intros Hc Hu. unfold coc_val.
    destruct (Z.eqb_spec c 0); destruct (Z.eqb_spec u 0); cbn [andb]; lia.
  Qed.

  Lemma coc_step_spec u st c :
    0 <= c <= 9 -> 0 <= u <= 9 -> coc_inv u st ->
    coc_inv u (coc_step st c) /\
    coc_bonus_val u (coc_step st c) = Z.min (coc_val c u) (coc_bonus_val u st) /\
    coc_pen_val u (coc_step st c) = Z.max (coc_val c u) (coc_pen_val u st).
  Proof.
    intros Hc Hu. destruct st as [[a b] ten]. unfold coc_inv, coc_step, coc_bonus_val, coc_pen_val, coc_val.
    intros (Ha & Hb & H0 & H1).
    destruct (Z.eqb_spec c 0) as [Ec|Ec]; destruct (Z.eqb_spec u 0) as [Eu|Eu];
      destruct ten; cbn [andb negb];
      try destruct (Z.ltb_spec c a); try destruct (Z.ltb_spec b c); lia.
  Qed.

  Lemma fold_min_shift x b l : fold_right Z.min (Z.min x b) l = Z.min x (fold_right Z.min b l).
  Proof. induction l as [|y r IH]; cbn [fold_right]; [reflexivity|]. rewrite IH. lia. Qed.
  Lemma fold_max_shift x b l : fold_right Z.max (Z.max x b) l = Z.max x (fold_right Z.max b l).
  Proof. induction l as [|y r IH]; cbn [fold_right]; [reflexivity|]. rewrite IH. lia. Qed.

  Lemma coc_fold u ds :
    0 <= u <= 9 -> Forall (fun c => 0 <= c <= 9) ds ->
    forall st, coc_inv u st ->
      coc_bonus_val u (fold_left coc_step ds st) =
        fold_right Z.min (coc_bonus_val u st) (map (fun c => coc_val c u) ds) /\
      coc_pen_val u (fold_left coc_step ds st) =
        fold_right Z.max (coc_pen_val u st) (map (fun c => coc_val c u) ds).
  Proof.
    intros Hu. induction 1 as [|c r Hc Hr IH]; intros st Hinv; cbn [fold_left map fold_right].
    - split; reflexivity.
    - destruct (coc_step_spec u st c Hc Hu Hinv) as (Hinv' & Hbv & Hpv).
      destruct (IH _ Hinv') as [IHb IHp].
      rewrite IHb, IHp, Hbv, Hpv, fold_min_shift, fold_max_shift. split; reflexivity.
  Qed.

  Lemma fold_min_range (lo hi b : Z) l :
    lo <= b <= hi -> Forall (fun x => lo <= x <= hi) l -> lo <= fold_right Z.min b l <= hi.
  Proof. intros Hb. induction 1; cbn [fold_right]; lia. Qed.
  Lemma fold_max_range (lo hi b : Z) l :
    lo <= b <= hi -> Forall (fun x => lo <= x <= hi) l -> lo <= fold_right Z.max b l <= hi.
  Proof. intros Hb. induction 1; cbn [fold_right]; lia. Qed.

  Lemma d100_digits res :
    1 <= res <= 100 ->
    let u := res mod 10 in
    let t0 := (res / 10) mod 10 in
    0 <= u <= 9 /\ 0 <= t0 <= 9 /\ coc_inv u (res / 10, res / 10, false) /\
    coc_val t0 u = res /\ res / 10 * 10 + u = res.
  Proof.
    intros H. cbv zeta. unfold coc_inv, coc_val.
    destruct (Z.eqb_spec ((res / 10) mod 10) 0); destruct (Z.eqb_spec (res mod 10) 0);
      cbn [andb]; Z.div_mod_to_equations; lia.
  Qed.

  Theorem roll_coc_spec fuel isBonus diceNum mode s num txt s' :
    0 <= diceNum ->
    roll_coc next fuel isBonus diceNum mode s = Done ((num, txt), s') ->
    exists (res : Z) (digits : list Z),
      1 <= res <= 100 /\
      Z.of_nat (length digits) = diceNum /\
      Forall (fun c => 0 <= c <= 9) digits /\
      (let u := res mod 10 in
       let t0 := (res / 10) mod 10 in
       num = (if isBonus
              then fold_right Z.min (coc_val t0 u) (map (fun c => coc_val c u) digits)
              else fold_right Z.max (coc_val t0 u) (map (fun c => coc_val c u) digits))) /\
      1 <= num <= 100 /\
      txt = "(D100=" ++ show_Z res ++ (if isBonus then ",奖励" else ",惩罚")
              ++ join " " (map show_Z digits) ++ ")".
  Proof.
    intros Hd H. unfold roll_coc in H.
    destruct (roll next fuel 100 mode s) as [[res s1]|] eqn:Er; [|discriminate].
    assert (Hres : 1 <= res <= 100).
    { eapply (roll_range S next next_word); [|exact Er]. unfold MaxInt64. lia. }
    cbv zeta in H.
    rewrite Z.quot_div_nonneg in H by lia. rewrite Z.rem_mod_nonneg in H by lia.
    destruct (coc_loop next fuel (Z.to_nat diceNum) isBonus mode ([], res / 10, res / 10, false) s1)
      as [[[[[nums a] b] ten] s2]|] eqn:El; [|discriminate].
    apply coc_loop_digits in El. destruct El as (ds & Hl & Hf & Hnums & Hst).
    cbn [app] in Hnums. subst nums.
    set (u := res mod 10) in *. set (t0 := (res / 10) mod 10).
    destruct (d100_digits res Hres) as (Hu & Ht0 & Hinv & Hbase & Hsplit). fold u t0 in Hu, Ht0, Hinv, Hbase, Hsplit.
    destruct (coc_fold u ds Hu Hf _ Hinv) as [Hb Hp]. rewrite <- Hst in Hb, Hp.
    assert (Hvals : Forall (fun x => 1 <= x <= 100) (map (fun c => coc_val c u) ds)).
    { rewrite Forall_map. eapply Forall_impl; [|exact Hf]. cbv beta. intros c Hc.
      apply coc_val_range; assumption. }
    exists res, ds.
    split; [exact Hres|]. split; [rewrite Hl; lia|]. split; [exact Hf|].
    fold u t0.
    destruct isBonus; inversion H; subst num txt s2; clear H.
    - unfold coc_bonus_val in Hb. rewrite andb_false_r, Hsplit, <- Hbase in Hb. cbv zeta.
      split; [exact Hb|]. split; [|reflexivity].
      rewrite Hb. apply fold_min_range; [rewrite Hbase; lia|exact Hvals].
    - unfold coc_pen_val in Hp. rewrite andb_false_r, Hsplit, <- Hbase in Hp. cbv zeta.
      split; [exact Hp|]. split; [|reflexivity].
      rewrite Hp. apply fold_max_range; [rewrite Hbase; lia|exact Hvals].
  Qed.

  Lemma coc_die_bonus_min fuel s : coc_die next fuel true (-1) s = Done (1, s).
  Proof. unfold coc_die. cbn [negb andb]. rewrite andb_false_r. apply roll_min_mode. Qed.

  Lemma coc_die_penalty_min fuel s : coc_die next fuel false (-1) s = Done (10, s).
  Proof. reflexivity. Qed.

  Lemma coc_die_max fuel isBonus s : coc_die next fuel isBonus 1 s = Done (10, s).
  Proof. unfold coc_die. change (1 =? -1) with false. cbn [andb]. apply roll_max_mode. Qed.

  (* in min and max mode every tens die shows the same face: 10, which only sets num10Exists, or 1
     (bonus die, min mode), which cannot lower a diceMin of 0 *)
  Lemma coc_loop_const fuel isBonus mode c k :
    (forall s, coc_die next fuel isBonus mode s = Done (c, s)) ->
    forall nums a b ten s, c = 10 \/ (c = 1 /\ a = 0) ->
    exists nums' b' ten',
      coc_loop next fuel k isBonus mode (nums, a, b, ten) s = Done ((nums', a, b', ten'), s) /\
      (c = 10 -> b' = b).
  Proof.
    intros Hdie. induction k as [|k IH]; intros nums a b ten s Hc; cbn [coc_loop].
    - exists nums, b, ten. split; reflexivity.
    - rewrite Hdie. destruct Hc as [-> | [-> ->]].
      + change (10 =? 10) with true. cbv iota. apply IH. left; reflexivity.
      + change (1 =? 10) with false. change (1 <? 0) with false. cbv iota.
        destruct (IH (nums ++ [show_Z 1])%list 0 (if b <? 1 then 1 else b) ten s) as (n' & b' & t' & E & _);
          [right; split; reflexivity|].
        exists n', b', t'. split; [exact E|discriminate].
  Qed.

  Theorem roll_coc_min fuel isBonus diceNum s :
    exists txt, roll_coc next fuel isBonus diceNum (-1) s = Done ((1, txt), s).
  Proof.
    unfold roll_coc. rewrite roll_min_mode. change (100 =? 0) with false. cbv iota zeta.
    change (Z.quot 1 10) with 0. change (Z.rem 1 10) with 1.
    destruct isBonus.
    - destruct (coc_loop_const fuel true (-1) 1 (Z.to_nat diceNum) (coc_die_bonus_min fuel) [] 0 0 false s)
        as (nums' & b' & ten' & -> & _); [right; split; reflexivity|].
      destruct ten'; eexists; reflexivity.
    - destruct (coc_loop_const fuel false (-1) 10 (Z.to_nat diceNum) (coc_die_penalty_min fuel) [] 0 0 false s)
        as (nums' & b' & ten' & -> & Hb); [left; reflexivity|].
      rewrite (Hb eq_refl). eexists. reflexivity.
  Qed.

  Theorem roll_coc_max fuel isBonus diceNum s :
    exists txt, roll_coc next fuel isBonus diceNum 1 s = Done ((100, txt), s).
  Proof.
    unfold roll_coc. rewrite roll_max_mode. cbv zeta.
    change (Z.quot 100 10) with 10. change (Z.rem 100 10) with 0.
    destruct (coc_loop_const fuel isBonus 1 10 (Z.to_nat diceNum) (coc_die_max fuel isBonus) [] 10 10 false s)
      as (nums' & b' & ten' & -> & Hb); [left; reflexivity|].
    rewrite (Hb eq_refl). destruct isBonus; [eexists; reflexivity|].
    destruct ten'; eexists; reflexivity.
  Qed.

  Theorem roll_coc_bonus_min fuel diceNum s :
    exists txt, roll_coc next fuel true diceNum (-1) s = Done ((1, txt), s).
  Proof. apply roll_coc_min. Qed.

  Theorem roll_coc_bonus_max fuel diceNum s :
    exists txt, roll_coc next fuel true diceNum 1 s = Done ((100, txt), s).
  Proof. apply roll_coc_max. Qed.

  Theorem roll_coc_penalty_min fuel diceNum s :
    0 <= diceNum ->
    exists txt, roll_coc next fuel false diceNum (-1) s = Done ((1, txt), s).
  Proof. intros _. apply roll_coc_min. Qed.

  Theorem roll_coc_penalty_max fuel diceNum s :
    0 <= diceNum ->
    exists txt, roll_coc next fuel false diceNum 1 s = Done ((100, txt), s).
  Proof. intros _. apply roll_coc_max. Qed.

  Theorem coc_bracket fuel isBonus diceNum s num txt s' :
    0 <= diceNum ->
    roll_coc next fuel isBonus diceNum 0 s = Done ((num, txt), s') ->
    exists nmin tmin nmax tmax,
      roll_coc next fuel isBonus diceNum (-1) s = Done ((nmin, tmin), s) /\
      roll_coc next fuel isBonus diceNum 1 s = Done ((nmax, tmax), s) /\
      nmin = 1 /\ nmax = 100 /\ nmin <= num <= nmax.
  Proof.
    intros Hd H.
    destruct (roll_coc_min fuel isBonus diceNum s) as [tmin Hmin].
    destruct (roll_coc_max fuel isBonus diceNum s) as [tmax Hmax].
    destruct (roll_coc_spec _ _ _ _ _ _ _ _ Hd H) as (res & ds & Hres & Hlen & Hdigits & Hval & Hr & Htxt).
    exists 1, tmin, 100, tmax. repeat split; try assumption; lia.
  Qed.

  Theorem coc_bracket_bonus fuel diceNum s num txt s' :
    0 <= diceNum ->
    roll_coc next fuel true diceNum 0 s = Done ((num, txt), s') ->
    exists nmin tmin nmax tmax,
      roll_coc next fuel true diceNum (-1) s = Done ((nmin, tmin), s) /\
      roll_coc next fuel true diceNum 1 s = Done ((nmax, tmax), s) /\
      nmin = 1 /\ nmax = 100 /\ nmin <= num <= nmax.
  Proof. apply coc_bracket. Qed.

  Lemma countZ_cons f x l : countZ f (x :: l) = (if f x then 1 else 0) + countZ f l.
  Proof.
    unfold countZ. cbn [filter]. destruct (f x); cbn [length]; [rewrite Nat2Z.inj_succ|]; lia.
  Qed.

  Lemma countZ_app f l1 l2 : countZ f (l1 ++ l2) = countZ f l1 + countZ f l2.
  Proof. unfold countZ. rewrite filter_app, app_length, Nat2Z.inj_add. reflexivity. Qed.

  Lemma countZ_nonneg f l : 0 <= countZ f l.
  Proof. unfold countZ. lia. Qed.

  Lemma round_chain_nonempty reach n rs : round_chain reach n rs -> rs <> [].
  Proof. destruct 1; discriminate. Qed.

  Lemma round_chain_concat_ge reach n rs : round_chain reach n rs -> (n <= length (concat rs))%nat.
  Proof. destruct 1 as [n r Hl _|n r rs Hl _ _]; cbn [concat]; rewrite app_length; lia. Qed.

  Lemma countZ_pos f l : 0 < countZ f l -> filter f l <> [].
  Proof. unfold countZ. intros H E. rewrite E in H. cbn [length] in H. lia. Qed.

  Lemma countZ_zero f l : countZ f l <= 0 -> filter f l = [].
  Proof. unfold countZ. destruct (filter f l); [reflexivity|cbn [length]; lia]. Qed.

  Lemma countZ_to_nat f l : Z.to_nat (countZ f l) = length (filter f l).
  Proof. apply Nat2Z.id. Qed.

  Lemma countZ_fold (f : Z -> bool) l : forall a,
    fold_left (fun a x => a + (if f x then 1 else 0)) l a = a + countZ f l.
  Proof.
    induction l as [|x l IH]; intros a; cbn [fold_left]; [unfold countZ; cbn; lia|].
    rewrite IH, countZ_cons. lia.
  Qed.

  (* summing per-round counts (as the WoD loop does) counts over all dice *)
  Lemma countZ_concat (f : Z -> bool) rs : forall a,
    fold_left (fun a r => a + fold_left (fun a x => a + (if f x then 1 else 0)) r 0) rs a
    = a + countZ f (concat rs).
  Proof.
    induction rs as [|r rs IH]; intros a; cbn [fold_left concat]; [unfold countZ; cbn; lia|].
    rewrite IH, countZ_fold, countZ_app. lia.
  Qed.

  Lemma dc_mx_noreach addLine r : filter (dc_reach addLine) r = [] ->
    forall m, fold_left (dc_mx_step addLine) r m = fold_left Z.max r m.
  Proof.
    induction r as [|x r IH]; intros Hf m; cbn [fold_left]; [reflexivity|].
    cbn [filter] in Hf. unfold dc_mx_step at 2. unfold dc_reach in Hf at 1.
    destruct (addLine <=? x); [discriminate|]. apply IH; exact Hf.
  Qed.

  Lemma dc_mx_exact addLine r1 x r2 m :
    dc_reach addLine x = true -> filter (dc_reach addLine) r2 = [] ->
    fold_left (dc_mx_step addLine) (r1 ++ x :: r2) m = fold_left Z.max r2 10.
  Proof.
    intros Hx Hr2. rewrite fold_left_app. cbn [fold_left].
    unfold dc_mx_step at 2. unfold dc_reach in Hx. rewrite Hx.
    apply dc_mx_noreach; exact Hr2.
  Qed.

  Lemma dc_mx_stays10 addLine r : Forall (fun x => x <= 10) r ->
    fold_left (dc_mx_step addLine) r 10 = 10.
  Proof.
    induction 1 as [|x r Hx Hr IH]; cbn [fold_left]; [reflexivity|].
    replace (dc_mx_step addLine 10 x) with 10; [exact IH|].
    unfold dc_mx_step. destruct (addLine <=? x); lia.
  Qed.

  Lemma dc_mx_reach addLine r : Forall (fun x => x <= 10) r ->
    filter (dc_reach addLine) r <> [] ->
    forall m, fold_left (dc_mx_step addLine) r m = 10.
  Proof.
    induction 1 as [|x r Hx Hr IH]; intros Hf m; cbn [fold_left filter] in *; [congruence|].
    unfold dc_mx_step at 2. unfold dc_reach at 1 in Hf.
    destruct (addLine <=? x).
    - apply dc_mx_stays10; exact Hr.
    - apply IH; exact Hf.
  Qed.

  Lemma fold_left_max_spec r : forall m,
    m <= fold_left Z.max r m /\
    Forall (fun x => x <= fold_left Z.max r m) r /\
    (fold_left Z.max r m = m \/ In (fold_left Z.max r m) r).
  Proof.
    induction r as [|x r IH]; intros m; cbn [fold_left].
    - split; [lia|]. split; [constructor|left; reflexivity].
    - destruct (IH (Z.max m x)) as (H1 & H2 & H3).
      split; [lia|]. split; [constructor; [lia|exact H2]|].
      destruct H3 as [H3|H3]; [|right; right; exact H3].
      rewrite H3. destruct (Z.max_spec m x) as [[_ E]|[_ E]]; rewrite E.
      + right; left; reflexivity.
      + left; reflexivity.
  Qed.

  Lemma dice_max_spec r :
    r <> [] -> Forall (fun x => 1 <= x) r ->
    In (dice_max r) r /\ Forall (fun x => x <= dice_max r) r.
  Proof.
    intros Hne Hpos. unfold dice_max. destruct (fold_left_max_spec r 0) as (H1 & H2 & H3).
    split; [|exact H2]. destruct H3 as [H3|H3]; [|exact H3]. exfalso.
    destruct r as [|x r]; [congruence|]. rewrite H3 in H2.
    inversion H2; subst. inversion Hpos; subst. lia.
  Qed.

  Lemma chain_result_exact addLine n rs :
    round_chain (dc_reach addLine) n rs ->
    Forall (Forall (fun x => x <= 10)) rs ->
    forall a, 0 <= a -> a + 10 * Z.of_nat (length rs) < two63 ->
      fold_left (fun a r => wrap64 (a + dc_round_max addLine r)) rs a
      = a + 10 * (Z.of_nat (length rs) - 1) + dice_max (last rs []).
  Proof.
    induction 1 as [n r Hl Hf|n r rs Hl Hf Hc IH]; intros Hall a Ha Hb;
      inversion Hall as [|r' rs' Hr Hrs]; subst; cbn [fold_left length] in *;
      rewrite ?Nat2Z.inj_succ in *.
    - unfold dc_round_max. rewrite (dc_mx_noreach _ _ Hf). fold (dice_max r).
      cbn [last].
      destruct (fold_left_max_spec r 0) as (H1 & H2 & H3). fold (dice_max r) in H1, H2, H3.
      assert (Hm : dice_max r <= 10).
      { destruct H3 as [H3|H3]; [lia|]. rewrite Forall_forall in Hr. apply Hr; exact H3. }
      rewrite wrap64_nonneg by lia. cbn [Z.of_nat]. lia.
    - unfold dc_round_max at 2. rewrite (dc_mx_reach _ _ Hr Hf).
      rewrite wrap64_nonneg by lia.
      rewrite (IH Hrs) by lia.
      pose proof (round_chain_nonempty _ _ _ Hc) as Hne.
      destruct rs as [|r2 rs2]; [congruence|]. cbn [last]. lia.
  Qed.

  Lemma drop_last_snoc a c : drop_last (a ++ String c "") = a.
  Proof.
    induction a as [|x a IH]; cbn [append drop_last]; [reflexivity|].
    rewrite IH. destruct (a ++ String c "") eqn:E; [|reflexivity].
    destruct a; discriminate.
  Qed.

  Lemma drop_last_inj c s s' :
    (exists a, s = a ++ String c "") -> (exists a', s' = a' ++ String c "") ->
    drop_last s = drop_last s' -> s = s'.
  Proof.
    intros [a ->] [a' ->]. rewrite !drop_last_snoc. intros ->. reflexivity.
  Qed.

  Lemma drop_last_head c r : r <> "" -> drop_last (String c r) = String c (drop_last r).
  Proof. intros H. cbn [drop_last]. destruct r; [congruence|reflexivity]. Qed.

  Lemma text_plus_ends l : l <> [] -> exists a, text_plus l = a ++ "+".
  Proof.
    induction l as [|x r IH]; intros H; [congruence|]. cbn [text_plus].
    destruct r as [|y q].
    - exists (show_Z x). cbn [text_plus]. reflexivity.
    - destruct IH as [a Ea]; [discriminate|]. rewrite Ea.
      exists (show_Z x ++ "+" ++ a). rewrite !sapp_assoc. reflexivity.
  Qed.

  Lemma text_plus_inj l : forall l', text_plus l = text_plus l' -> l = l'.
  Proof.
    induction l as [|x r IH]; intros l' E; destruct l' as [|y q]; cbn [text_plus] in E.
    - reflexivity.
    - destruct (show_Z_head y) as (c & t & Ey & _). rewrite Ey in E. discriminate.
    - destruct (show_Z_head x) as (c & t & Ex & _). rewrite Ex in E. discriminate.
    - apply (show_Z_framed_inj "" "" "") in E; [|reflexivity|auto|auto|reflexivity|reflexivity].
      destruct E as (-> & _ & [= E2]). f_equal. apply IH, E2.
  Qed.

  Lemma text_bar_ends l : forall i p, l <> [] -> exists a, text_bar i p l = a ++ " ".
  Proof.
    induction l as [|x r IH]; intros i p H; [congruence|]. cbn [text_bar].
    destruct r as [|y q].
    - exists ((if i =? p then "| " else "") ++ show_Z x). cbn [text_bar].
      rewrite !sapp_assoc. reflexivity.
    - destruct (IH (i + 1) p) as [a Ea]; [discriminate|]. rewrite Ea.
      exists ((if i =? p then "| " else "") ++ show_Z x ++ " " ++ a). rewrite !sapp_assoc. reflexivity.
  Qed.

  Lemma text_bar_inj p p' l : forall l' i,
    text_bar i p l = text_bar i p' l' ->
    l = l' /\ (i <= p < i + Z.of_nat (length l) -> i <= p' < i + Z.of_nat (length l) -> p = p').
  Proof.
    induction l as [|x r IH]; intros l' i E; destruct l' as [|y q]; cbn [text_bar] in E.
    - split; [reflexivity|]. cbn [length]. lia.
    - exfalso. destruct (show_Z_head y) as (c & t & Ey & _). rewrite Ey in E.
      destruct (i =? p'); discriminate.
    - exfalso. destruct (show_Z_head x) as (c & t & Ex & _). rewrite Ex in E.
      destruct (i =? p); discriminate.
    - apply (show_Z_framed_inj "| ") in E;
        [|reflexivity|destruct (i =? p); auto|destruct (i =? p'); auto|reflexivity|reflexivity].
      destruct E as (-> & Eb & [= E2]). apply IH in E2. destruct E2 as [E2 E3].
      subst q. split; [reflexivity|]. cbn [length]. rewrite Nat2Z.inj_succ. intros Hp Hp'.
      destruct (Z.eqb_spec i p); destruct (Z.eqb_spec i p'); try discriminate; [lia|].
      apply E3; lia.
  Qed.

  Theorem common_text_inj t p p' l l' :
    0 <= p <= t -> 0 <= p' <= t ->
    Z.of_nat (length l) = t -> Z.of_nat (length l') = t ->
    common_text t p l = common_text t p' l' ->
    l = l' /\ p = p'.
  Proof.
    intros Hp Hp' Hl Hl' E. unfold common_text in E.
    destruct (Z.eqb_spec p t) as [Ept|Ept]; destruct (Z.eqb_spec p' t) as [Ept'|Ept'].
    - split; [|lia].
      destruct l as [|x r]; destruct l' as [|y q]; cbn [length] in *; try lia; [reflexivity|].
      apply text_plus_inj.
      apply (drop_last_inj "+"); [apply text_plus_ends; discriminate| apply text_plus_ends; discriminate|exact E].
    - exfalso. destruct l as [|x r]; [discriminate|].
      cbn [text_plus] in E. destruct (show_Z_head x) as (c & tx & Ex & Hc & _).
      rewrite Ex in E. cbn [append] in E. rewrite drop_last_head in E by (destruct tx; discriminate).
      inversion E; subst c. discriminate.
    - exfalso. destruct l' as [|y q]; [discriminate|].
      cbn [text_plus] in E. destruct (show_Z_head y) as (c & ty & Ey & Hc & _).
      rewrite Ey in E. cbn [append] in E. rewrite drop_last_head in E by (destruct ty; discriminate).
      inversion E; subst c. discriminate.
    - cbn [append] in E. inversion E as [E0]. clear E. apply sapp_inv_tail in E0.
      destruct l as [|x r]; destruct l' as [|y q]; cbn [length] in *; try lia.
      apply (drop_last_inj " ") in E0; [| apply text_bar_ends; discriminate| apply text_bar_ends; discriminate].
      apply text_bar_inj in E0. destruct E0 as [E1 E2]. split; [exact E1|].
      apply E2; cbn [length]; lia.
  Qed.
  (* XdY with every modifier: the span the VM records is (show_Z num, txt) *)
  Theorem annotation_total_common fuel times d dmin dmax keep lo hi mode s num txt s' :
    0 <= times -> 1 <= d <= MaxInt64 - 1 ->
    roll_common next fuel times d dmin dmax keep lo hi mode s = Done ((num, txt), s') ->
    let pick := pick_num times keep lo hi in
    exists shown : list Z,
      Z.of_nat (length shown) = times /\ 0 <= pick <= times /\
      txt = common_text times pick shown /\
      num = sum64 (firstn (Z.to_nat pick) shown) /\
      (forall shown' pick', 0 <= pick' <= times -> Z.of_nat (length shown') = times ->
         common_text times pick' shown' = txt ->
         shown' = shown /\ pick' = pick /\ sum64 (firstn (Z.to_nat pick') shown') = num).
  Proof.
    intros Ht Hd H. cbv zeta.
    destruct (roll_common_legal fuel times d dmin dmax keep lo hi mode s num txt s' Ht Hd H)
      as (draws & shown & Hmany & Hperm & Hl & Hlegal & Hkeep0 & Hasc & Hdesc & Hn & Htxt).
    pose proof (pick_num_range times keep lo hi Ht) as Hp.
    exists shown. split; [exact Hl|]. split; [exact Hp|]. split; [exact Htxt|]. split; [exact Hn|].
    intros shown' pick' Hp' Hl' E. rewrite Htxt in E.
    destruct (common_text_inj times pick' (pick_num times keep lo hi) shown' shown Hp' Hp Hl' Hl E) as [-> ->].
    split; [reflexivity|]. split; [reflexivity|]. symmetry. exact Hn.
  Qed.

  Theorem annotation_total_fate fuel mode s sum txt s' :
    roll_fate next fuel mode s = Done ((sum, txt), s') ->
    String.length txt = 4%nat /\ Forall fate_char (list_ascii_of_string txt) /\
    sum = count_char "+" txt - count_char "-" txt.
  Proof.
    intros H. destruct (roll_fate_spec fuel mode s sum txt s' H) as (Hlen & Hchars & Hsum & Hrange). auto.
  Qed.

  Theorem annotation_total_coc fuel isBonus diceNum mode s num txt s' :
    0 <= diceNum ->
    roll_coc next fuel isBonus diceNum mode s = Done ((num, txt), s') ->
    exists (res : Z) (digits : list Z),
      txt = "(D100=" ++ show_Z res ++ (if isBonus then ",奖励" else ",惩罚") ++ join " " (map show_Z digits) ++ ")" /\
      Z.of_nat (length digits) = diceNum /\
      (let u := res mod 10 in
       let t0 := (res / 10) mod 10 in
       num = (if isBonus
              then fold_right Z.min (coc_val t0 u) (map (fun c => coc_val c u) digits)
              else fold_right Z.max (coc_val t0 u) (map (fun c => coc_val c u) digits))).
  Proof.
    intros Hn H.
    destruct (roll_coc_spec fuel isBonus diceNum mode s num txt s' Hn H)
      as (res & digits & Hres & Hl & Hdigits & Hv & Hrange & Ht).
    exists res, digits. auto.
  Qed.
End Source.
Arguments draws {S} die k s.
Arguments fold_draws {S A} die step k acc s.

Print Assumptions roll_many_legal.
Print Assumptions sort_by_perm.
Print Assumptions sort_by_leb_ssorted.
Print Assumptions sort_by_geb_ssorted.
Print Assumptions pick_num_range.
Print Assumptions sum64_exact_abs.
Print Assumptions sum64_exact.
Print Assumptions roll_common_legal.
Print Assumptions roll_common_keeps_extremes.
Print Assumptions roll_common_min.
Print Assumptions roll_common_max.
Print Assumptions common_bracket.
Print Assumptions roll_fate_spec.
Print Assumptions roll_fate_min.
Print Assumptions roll_fate_max.
Print Assumptions roll_coc_spec.
Print Assumptions coc_bracket_bonus.
Print Assumptions sort_by_leb_sorted.
Print Assumptions sort_by_geb_sorted.
Print Assumptions roll_common_min_gen.
Print Assumptions roll_coc_bonus_min.
Print Assumptions roll_coc_bonus_max.
Print Assumptions roll_coc_penalty_min.
Print Assumptions roll_coc_penalty_max.
Print Assumptions coc_bracket.
Print Assumptions dc_mx_exact.
Print Assumptions dice_max_spec.
Print Assumptions common_text_inj.

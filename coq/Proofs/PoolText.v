(* The display text of the pool rollers (World of Darkness, Double Cross) as an explicit
   rendering of the SAME rounds of dice that the counting theorems (roll_wod_spec /
   roll_dc_spec) speak about; the displayed dice recount to the result; the rendering
   is injective (the text determines the header numbers and every die).  The two rollers are
   instances of one rounds loop (pool_rounds). *)
From Coq Require Import String Ascii NArith ZArith List Bool Lia.
From DS Require Import Model.PCG Model.Roll Model.Str Model.Dice Proofs.StrFacts Proofs.RollProofs Proofs.DiceProofs.
Import ListNotations.
Open Scope string_scope.
Open Scope Z_scope.

Definition wod_die_text (addLine threshold : Z) (isGE : bool) (x : Z) : string :=
  let base := show_Z x ++ (if wod_succ threshold isGE x then "*" else "") in
  if wod_reach addLine x then "<" ++ base ++ ">" else base.

Definition dc_die_text (addLine : Z) (x : Z) : string :=
  if dc_reach addLine x then "<" ++ show_Z x ++ ">" else show_Z x.

Definition round_text (die : Z -> string) (r : list Z) : string :=
  "{" ++ join "," (map die r) ++ "}".

Definition rounds_text (die : Z -> string) (rs : list (list Z)) : string :=
  join "," (map (round_text die) rs).

(* The running total of dice (int64, as the implementation keeps it) exceeded 100 after some
   round: `a` is the total before the first round of `rs` is evaluated (the dice of that round
   are already included), each round adds its number of dice reaching the line (= the dice of
   the next round). *)
Fixpoint over100 (reach : Z -> bool) (a : Z) (rs : list (list Z)) : bool :=
  match rs with
  | [] => false
  | r :: rs' => let a' := wrap64 (a + countZ reach r) in (100 <? a') || over100 reach a' rs'
  end.

Definition pool_displayed (reach : Z -> bool) (pool : Z) (rs : list (list Z)) : bool :=
  (pool <? 15) && negb (over100 reach pool rs).

Definition pool_text (head : string) (res all rounds : Z) (dice : option string) : string :=
  head ++ show_Z res ++ "/" ++ show_Z all
       ++ (if 1 <? rounds then " 轮数:" ++ show_Z rounds else "")
       ++ (match dice with Some d => " " ++ d | None => "" end).

Definition wod_render (addLine threshold : Z) (isGE : bool) (pool succ all rounds : Z)
           (rs : list (list Z)) : string :=
  pool_text "成功" succ all rounds
    (if pool_displayed (wod_reach addLine) pool rs
     then Some (rounds_text (wod_die_text addLine threshold isGE) rs) else None).

Definition dc_render (addLine : Z) (pool result all rounds : Z) (rs : list (list Z)) : string :=
  (if result =? 1 then "大失败 " else "") ++
  pool_text "出目" result all rounds
    (if pool_displayed (dc_reach addLine) pool rs
     then Some (rounds_text (dc_die_text addLine) rs) else None).

(* the `details` a rounds loop ends with *)
Definition shown_details (reach : Z -> bool) (die : Z -> string) (all : Z) (show : bool)
           (details : list string) (rs : list (list Z)) : list string :=
  if over100 reach all rs then []
  else if show then (details ++ map (round_text die) rs)%list else details.

Lemma shown_details_cons reach die all show details r rs :
  shown_details reach die all show details (r :: rs) =
  let all1 := wrap64 (all + countZ reach r) in
  shown_details reach die all1 (negb (100 <? all1) && show)
    (if 100 <? all1 then [] else if show then (details ++ [round_text die r])%list else details) rs.
Proof.
  unfold shown_details. cbn [over100 map]. cbv zeta.
  destruct (100 <? wrap64 (all + countZ reach r)); cbn [orb negb andb].
  - destruct (over100 reach _ rs); reflexivity.
  - destruct (over100 reach _ rs); [reflexivity|]. destruct show; [|reflexivity].
    rewrite <- app_assoc. reflexivity.
Qed.

Lemma shown_details_nil reach die all show details :
  shown_details reach die all show details [] = details.
Proof. unfold shown_details. cbn [over100 map]. rewrite app_nil_r. destruct show; reflexivity. Qed.

Lemma details_text reach die pool rs d :
  rs <> [] -> d = shown_details reach die pool (pool <? 15) [] rs ->
  match d with [] => "" | _ => " " ++ join "," d end
  = match (if pool_displayed reach pool rs then Some (rounds_text die rs) else None) with
    | Some t => " " ++ t | None => "" end.
Proof.
  intros Hne ->. unfold shown_details, pool_displayed, rounds_text.
  destruct (over100 reach pool rs); [rewrite andb_false_r; reflexivity|].
  rewrite andb_true_r. destruct (pool <? 15); [|reflexivity].
  destruct rs; [congruence|reflexivity].
Qed.

Section Source.
  Variable S : Type.
  Variable next : S -> N * S.
  Hypothesis next_word : forall s, (fst (next s) < W64)%N.

  (* WoD and Double Cross are one loop: a round draws k dice and keeps (value, number of dice
     reaching the line, texts); the rounds loop combines the round values, re-rolls as many dice
     as reached the line, and keeps the texts while the total stays within 100 *)
  Section Rounds.
    Variables (f : Z -> Z -> Z) (reach : Z -> bool) (die : Z -> string) (comb : Z -> Z -> Z).
    Variables (fuel : nat) (points mode : Z).

    Definition pool_step (show : bool) (acc : Z * Z * list string) (x : Z) : Z * Z * list string :=
      let '(v, add, txt) := acc in
      (f v x, add + (if reach x then 1 else 0), if show then (txt ++ [die x])%list else txt).

    Lemma pool_fold show l : forall v add txt,
      fold_left (pool_step show) l (v, add, txt) =
      (fold_left f l v, add + countZ reach l, if show then (txt ++ map die l)%list else txt).
    Proof.
      induction l as [|x l IH]; intros v add txt; cbn [fold_left map].
      - unfold countZ. cbn [filter length Z.of_nat]. rewrite Z.add_0_r, app_nil_r. destruct show; reflexivity.
      - cbn [pool_step]. rewrite IH, countZ_cons, Z.add_assoc. destruct show; [|reflexivity].
        rewrite <- app_assoc. reflexivity.
    Qed.

    Definition pool_round (k : nat) (show : bool) (s : S) : outcome ((Z * Z * list string) * S) :=
      fold_draws (roll next fuel points mode) (pool_step show) k (0, 0, []) s.

    Lemma pool_round_spec k show s v add txt s1 :
      1 <= points <= MaxInt64 - 1 ->
      pool_round k show s = Done ((v, add, txt), s1) ->
      exists dice, length dice = k /\ Forall (fun x => 1 <= x <= points) dice /\
                   v = fold_left f dice 0 /\ add = countZ reach dice /\
                   txt = if show then map die dice else [].
    Proof.
      intros Hp H. unfold pool_round, fold_draws in H.
      destruct (draws (roll next fuel points mode) k s) as [[dice s2]|] eqn:Ed; [|discriminate].
      rewrite pool_fold in H. injection H as <- <- <- _.
      destruct (roll_draws_legal S next next_word _ _ _ _ _ _ _ Hp Ed) as [Hl Hf].
      exists dice. repeat split; assumption.
    Qed.

    (* the body of wod_rounds / dc_rounds; the pair (show, details) after the test against 100 is
       written out as two expressions *)
    Fixpoint pool_rounds (rfuel : nat) (pool : Z) (show : bool) (all acc rnd : Z) (details : list string) (s : S)
      : outcome ((Z * Z * Z * list string) * S) :=
      match rfuel with
      | O => OutOfFuel
      | Datatypes.S rf =>
        match pool_round (Z.to_nat pool) show s with
        | OutOfFuel => OutOfFuel
        | Done ((v, add, txt), s1) =>
          let all1 := wrap64 (all + add) in
          let details1 :=
            if 100 <? all1 then []
            else if show then (details ++ [("{" ++ join "," txt ++ "}")%string])%list else details in
          if 0 <? add
          then pool_rounds rf add (negb (100 <? all1) && show) all1 (comb acc v) (rnd + 1) details1 s1
          else Done ((comb acc v, all1, rnd, details1), s1)
        end
      end.

    Lemma pool_rounds_spec rfuel :
      1 <= points <= MaxInt64 - 1 ->
      forall pool show all acc rnd details s acc' all' rnd' details' s',
      pool_rounds rfuel pool show all acc rnd details s = Done ((acc', all', rnd', details'), s') ->
      exists rs : list (list Z),
        round_chain reach (Z.to_nat pool) rs /\
        Forall (Forall (fun x => 1 <= x <= points)) rs /\
        acc' = fold_left (fun a r => comb a (fold_left f r 0)) rs acc /\
        all' = fold_left (fun a r => wrap64 (a + countZ reach r)) rs all /\
        rnd' = rnd + Z.of_nat (length rs) - 1 /\
        (length rs <= rfuel)%nat /\
        details' = shown_details reach die all show details rs.
    Proof.
      intros Hp. induction rfuel as [|rf IH];
        intros pool show all acc rnd details s acc' all' rnd' details' s' H; cbn [pool_rounds] in H; [discriminate|].
      destruct (pool_round (Z.to_nat pool) show s) as [[[[v add] txt] s1]|] eqn:Er; [|discriminate].
      destruct (pool_round_spec _ _ _ _ _ _ _ Hp Er) as (dice & Hl & Hf & -> & -> & Ht). cbv zeta in H.
      replace (if show then (details ++ [("{" ++ join "," txt ++ "}")%string])%list else details)
        with (if show then (details ++ [round_text die dice])%list else details) in H
        by (subst txt; destruct show; reflexivity).
      destruct (Z.ltb_spec 0 (countZ reach dice)) as [Hpos|Hnpos].
      - apply IH in H. destruct H as (rs & Hc & Hfr & -> & -> & -> & Hlen & ->).
        rewrite countZ_to_nat in Hc.
        exists (dice :: rs). rewrite shown_details_cons. cbn [fold_left length].
        split; [exact (chain_more _ _ _ _ Hl (countZ_pos _ _ Hpos) Hc)|].
        split; [constructor; assumption|]. repeat split; lia.
      - injection H as <- <- <- <- _.
        exists [dice]. rewrite shown_details_cons, shown_details_nil. cbn [fold_left length].
        split; [exact (chain_last _ _ _ Hl (countZ_zero _ _ Hnpos))|].
        split; [repeat constructor; assumption|]. repeat split; lia.
    Qed.
  End Rounds.

  Lemma wod_round_fold fuel addLine points threshold isGE mode show : forall k acc s,
    wod_round next fuel k addLine points threshold isGE mode show acc s =
    fold_draws (roll next fuel points mode)
      (pool_step (fun succ x => succ + (if wod_succ threshold isGE x then 1 else 0))
                 (wod_reach addLine) (wod_die_text addLine threshold isGE) show) k acc s.
  Proof.
    apply fold_draws_loop; [reflexivity|]. intros k [[succ add] txt] s. cbn [wod_round].
    destruct (roll next fuel points mode s) as [[one s1]|]; reflexivity.
  Qed.

  Lemma dc_round_fold fuel addLine points mode show : forall k acc s,
    dc_round next fuel k addLine points mode show acc s =
    fold_draws (roll next fuel points mode)
      (pool_step (dc_mx_step addLine) (dc_reach addLine) (dc_die_text addLine) show) k acc s.
  Proof.
    apply fold_draws_loop; [reflexivity|]. intros k [[mx add] txt] s. cbn [dc_round].
    destruct (roll next fuel points mode s) as [[one s1]|]; [|reflexivity]. cbv zeta.
    replace (if addLine <=? one then 10 else if mx <? one then one else mx) with (dc_mx_step addLine mx one);
      [reflexivity|].
    unfold dc_mx_step. destruct (addLine <=? one); [reflexivity|]. destruct (Z.ltb_spec mx one); lia.
  Qed.

  Lemma wod_rounds_eq rfuel fuel addLine points threshold isGE mode :
    forall pool show all succ rnd details s,
    wod_rounds next rfuel fuel addLine points threshold isGE mode pool show all succ rnd details s =
    pool_rounds (fun succ x => succ + (if wod_succ threshold isGE x then 1 else 0))
           (wod_reach addLine) (wod_die_text addLine threshold isGE) Z.add fuel points mode
           rfuel pool show all succ rnd details s.
  Proof.
    induction rfuel as [|rf IH]; intros; cbn [wod_rounds pool_rounds]; [reflexivity|].
    unfold pool_round. rewrite <- wod_round_fold.
    destruct (wod_round _ _ _ _ _ _ _ _ _ _ _) as [[[[sc add] txt] s1]|]; [|reflexivity]. cbv zeta.
    destruct (100 <? _); destruct (0 <? add); try reflexivity; apply IH.
  Qed.

  Lemma dc_rounds_eq rfuel fuel addLine points mode :
    forall pool show all result rnd details s,
    dc_rounds next rfuel fuel addLine points mode pool show all result rnd details s =
    pool_rounds (dc_mx_step addLine) (dc_reach addLine) (dc_die_text addLine) (fun a v => wrap64 (a + v))
           fuel points mode rfuel pool show all result rnd details s.
  Proof.
    induction rfuel as [|rf IH]; intros; cbn [dc_rounds pool_rounds]; [reflexivity|].
    unfold pool_round. rewrite <- dc_round_fold.
    destruct (dc_round _ _ _ _ _ _ _ _ _) as [[[[mx add] txt] s1]|]; [|reflexivity]. cbv zeta.
    destruct (100 <? _); destruct (0 <? add); try reflexivity; apply IH.
  Qed.

  Lemma filter_len_le (f : Z -> bool) l : (length (filter f l) <= length l)%nat.
  Proof. induction l as [|x l IH]; cbn [filter length]; [lia|]. destruct (f x); cbn [length]; lia. Qed.

  Lemma chain_concat_le reach n rs :
    round_chain reach n rs -> (length (concat rs) <= n * length rs)%nat.
  Proof.
    induction 1 as [n r Hl Hf|n r rs Hl Hf Hc IH]; cbn [concat length]; rewrite app_length.
    - cbn [length]. lia.
    - pose proof (filter_len_le reach r) as Hk. nia.
  Qed.

  Lemma chain_totals reach n rs :
    round_chain reach n rs ->
    forall a, 0 <= a ->
      a + Z.of_nat (length (concat rs)) - Z.of_nat n < two63 ->
      fold_left (fun a r => wrap64 (a + countZ reach r)) rs a
        = a + Z.of_nat (length (concat rs)) - Z.of_nat n /\
      over100 reach a rs = (100 <? a + Z.of_nat (length (concat rs)) - Z.of_nat n).
  Proof.
    induction 1 as [n r Hl Hf|n r rs Hl Hf Hc IH]; intros a Ha Hb; cbn [fold_left over100 concat] in *;
      rewrite app_length, Nat2Z.inj_add in *.
    - unfold countZ. rewrite Hf. cbn [length app Z.of_nat].
      rewrite wrap64_nonneg by lia.
      rewrite orb_false_r. split; [|f_equal]; lia.
    - pose proof (round_chain_concat_ge _ _ _ Hc) as Hge.
      assert (Hk : countZ reach r = Z.of_nat (length (filter reach r))) by reflexivity.
      rewrite wrap64_nonneg by lia.
      destruct (IH (a + countZ reach r)) as [IH1 IH2]; [lia|lia|].
      rewrite IH1, IH2. split; lia.
  Qed.

  (* a round adds at most n dice to a total of at most 100: n < two63 - 100 keeps that sum an int64 *)
  Lemma over100_false_exact reach n rs :
    round_chain reach n rs -> Z.of_nat n < two63 - 100 ->
    forall a, 0 <= a <= 100 -> over100 reach a rs = false ->
      fold_left (fun a r => wrap64 (a + countZ reach r)) rs a
        = a + Z.of_nat (length (concat rs)) - Z.of_nat n /\
      a + Z.of_nat (length (concat rs)) - Z.of_nat n <= 100.
  Proof.
    induction 1 as [n r Hl Hf|n r rs Hl Hf Hc IH]; intros Hn a Ha Hov; cbn [over100 fold_left concat] in *;
      rewrite app_length, Nat2Z.inj_add in *.
    - unfold countZ in *. rewrite Hf in *. cbn [length app Z.of_nat] in *.
      rewrite wrap64_nonneg in * by lia. lia.
    - apply orb_false_iff in Hov. destruct Hov as [Hov1 Hov2].
      pose proof (filter_len_le reach r) as Hk.
      unfold countZ in *.
      rewrite wrap64_nonneg in Hov1, Hov2 |- * by lia.
      destruct (IH ltac:(lia) (a + Z.of_nat (length (filter reach r))) ltac:(lia) Hov2) as [IH1 IH2].
      rewrite IH1. lia.
  Qed.

  Lemma pool_displayed_true reach pool rs :
    round_chain reach (Z.to_nat pool) rs -> 0 <= pool ->
    pool_displayed reach pool rs = true ->
    pool < 15 /\ Z.of_nat (length (concat rs)) <= 100 /\
    fold_left (fun a r => wrap64 (a + countZ reach r)) rs pool = Z.of_nat (length (concat rs)).
  Proof.
    intros Hc Hp Hd. unfold pool_displayed in Hd. apply andb_true_iff in Hd.
    destruct Hd as [H15 Hov]. apply negb_true_iff in Hov.
    destruct (over100_false_exact _ _ _ Hc ltac:(unfold two63; lia) pool ltac:(lia) Hov) as [H1 H2].
    rewrite Z2Nat.id in * by lia. split; [lia|]. split; [lia|]. rewrite H1. lia.
  Qed.

  (* at most rfuel rounds, none larger than the first: if rfuel * pool fits, the dice counter never
     wraps *)
  Lemma chain_closed reach pool rs rfuel :
    round_chain reach (Z.to_nat pool) rs -> 0 <= pool ->
    (length rs <= rfuel)%nat -> Z.of_nat rfuel * pool < two63 ->
    Z.of_nat (length (concat rs)) < two63 /\
    pool_displayed reach pool rs = (pool <? 15) && (Z.of_nat (length (concat rs)) <=? 100).
  Proof.
    intros Hc Hp Hl Hb. pose proof (chain_concat_le _ _ _ Hc) as H.
    apply Nat2Z.inj_le in H. rewrite Nat2Z.inj_mul, Z2Nat.id in H by lia.
    assert (Hnw : Z.of_nat (length (concat rs)) < two63) by nia.
    split; [exact Hnw|]. unfold pool_displayed.
    rewrite (proj2 (chain_totals _ _ _ Hc pool ltac:(lia) ltac:(lia))), Z2Nat.id by lia. f_equal. lia.
  Qed.

  Theorem roll_wod_text rfuel fuel addLine pool points threshold isGE mode s succ all rounds txt s' :
    wod_check addLine pool points threshold = true ->
    points <= MaxInt64 - 1 ->
    roll_wod next rfuel fuel addLine pool points threshold isGE mode s
      = Done ((succ, all, rounds, txt), s') ->
    exists rs : list (list Z),
      1 <= pool <= 20000 /\
      round_chain (wod_reach addLine) (Z.to_nat pool) rs /\
      Forall (Forall (fun x => 1 <= x <= points)) rs /\
      succ = countZ (wod_succ threshold isGE) (concat rs) /\
      rounds = Z.of_nat (length rs) /\
      (Z.of_nat (length (concat rs)) < two63 -> all = Z.of_nat (length (concat rs))) /\
      (length rs <= rfuel)%nat /\
      txt = wod_render addLine threshold isGE pool succ all rounds rs.
  Proof.
    intros Hchk Hpts H. unfold wod_check in Hchk.
    assert (Hpool : 1 <= pool <= 20000) by lia.
    assert (Hp : 1 <= points <= MaxInt64 - 1) by lia.
    unfold roll_wod in H. rewrite wod_rounds_eq in H.
    destruct (pool_rounds _ _ _ _ _ _ _ _ _ _ _ _ _ _ _) as [[[[[succ0 all0] rounds0] details] s1]|] eqn:Er;
      [|discriminate].
    cbv zeta in H. injection H as -> -> -> Htxt _.
    apply (pool_rounds_spec _ _ _ _ _ _ _ _ Hp) in Er.
    destruct Er as (rs & Hc & Hf & Hs & Ha & Hr & Hlen & Hd).
    rewrite countZ_concat in Hs.
    exists rs. split; [exact Hpool|]. split; [exact Hc|]. split; [exact Hf|].
    split; [lia|]. split; [lia|]. split; [|split; [exact Hlen|]].
    - intros Hb. rewrite Ha, (proj1 (chain_totals _ _ _ Hc pool ltac:(lia) ltac:(lia))). lia.
    - rewrite <- Htxt. unfold wod_render, pool_text.
      rewrite <- (details_text _ _ _ _ _ (round_chain_nonempty _ _ _ Hc) Hd). reflexivity.
  Qed.

  Theorem roll_wod_spec rfuel fuel addLine pool points threshold isGE mode s succ all rounds txt s' :
    wod_check addLine pool points threshold = true ->
    points <= MaxInt64 - 1 ->
    roll_wod next rfuel fuel addLine pool points threshold isGE mode s
      = Done ((succ, all, rounds, txt), s') ->
    exists rs : list (list Z),
      1 <= pool <= 20000 /\
      round_chain (wod_reach addLine) (Z.to_nat pool) rs /\
      Forall (Forall (fun x => 1 <= x <= points)) rs /\
      succ = countZ (wod_succ threshold isGE) (concat rs) /\
      rounds = Z.of_nat (length rs) /\
      (Z.of_nat (length (concat rs)) < two63 -> all = Z.of_nat (length (concat rs))).
  Proof.
    intros Hchk Hpts H. destruct (roll_wod_text _ _ _ _ _ _ _ _ _ _ _ _ _ _ Hchk Hpts H) as (rs & Hrs).
    exists rs. tauto.
  Qed.

  Theorem roll_dc_text rfuel fuel addLine pool points mode s result all rounds txt s' :
    dc_check addLine pool points = true ->
    points <= MaxInt64 - 1 ->
    roll_dc next rfuel fuel addLine pool points mode s = Done ((result, all, rounds, txt), s') ->
    exists rs : list (list Z),
      1 <= pool <= 20000 /\
      round_chain (dc_reach addLine) (Z.to_nat pool) rs /\
      Forall (Forall (fun x => 1 <= x <= points)) rs /\
      rounds = Z.of_nat (length rs) /\
      (Z.of_nat (length (concat rs)) < two63 -> all = Z.of_nat (length (concat rs))) /\
      result = fold_left (fun a r => wrap64 (a + dc_round_max addLine r)) rs 0 /\
      (points <= 10 -> 10 * rounds < two63 ->
       result = 10 * (rounds - 1) + dice_max (last rs [])) /\
      (length rs <= rfuel)%nat /\
      txt = dc_render addLine pool result all rounds rs.
  Proof.
    intros Hchk Hpts H. unfold dc_check in Hchk.
    assert (Hpool : 1 <= pool <= 20000) by lia.
    assert (Hp : 1 <= points <= MaxInt64 - 1) by lia.
    unfold roll_dc in H. rewrite dc_rounds_eq in H.
    destruct (pool_rounds _ _ _ _ _ _ _ _ _ _ _ _ _ _ _) as [[[[[result0 all0] rounds0] details] s1]|] eqn:Er;
      [|discriminate].
    cbv zeta in H. injection H as -> -> -> Htxt _.
    apply (pool_rounds_spec _ _ _ _ _ _ _ _ Hp) in Er.
    destruct Er as (rs & Hc & Hf & Hres & Ha & Hr & Hlen & Hd). fold (dc_round_max addLine) in Hres.
    exists rs. split; [exact Hpool|]. split; [exact Hc|]. split; [exact Hf|].
    split; [lia|]. split; [|split; [exact Hres|split; [|split; [exact Hlen|]]]].
    - intros Hb. rewrite Ha, (proj1 (chain_totals _ _ _ Hc pool ltac:(lia) ltac:(lia))). lia.
    - intros Hp10 Hrb. rewrite Hres.
      assert (Hle : Forall (Forall (fun x => x <= 10)) rs).
      { eapply Forall_impl; [|exact Hf]. intros r Hr'. eapply Forall_impl; [|exact Hr'].
        cbv beta. intros x Hx. lia. }
      rewrite (chain_result_exact _ _ _ Hc Hle) by lia. lia.
    - rewrite <- Htxt. unfold dc_render, pool_text.
      rewrite <- (details_text _ _ _ _ _ (round_chain_nonempty _ _ _ Hc) Hd).
      destruct (result =? 1); reflexivity.
  Qed.

  Theorem roll_dc_spec rfuel fuel addLine pool points mode s result all rounds txt s' :
    dc_check addLine pool points = true ->
    points <= MaxInt64 - 1 ->
    roll_dc next rfuel fuel addLine pool points mode s = Done ((result, all, rounds, txt), s') ->
    exists rs : list (list Z),
      1 <= pool <= 20000 /\
      round_chain (dc_reach addLine) (Z.to_nat pool) rs /\
      Forall (Forall (fun x => 1 <= x <= points)) rs /\
      rounds = Z.of_nat (length rs) /\
      (Z.of_nat (length (concat rs)) < two63 -> all = Z.of_nat (length (concat rs))) /\
      result = fold_left (fun a r => wrap64 (a + dc_round_max addLine r)) rs 0 /\
      (points <= 10 -> 10 * rounds < two63 ->
       result = 10 * (rounds - 1) + dice_max (last rs [])).
  Proof.
    intros Hchk Hpts H. destruct (roll_dc_text _ _ _ _ _ _ _ _ _ _ _ _ Hchk Hpts H) as (rs & Hrs).
    exists rs. tauto.
  Qed.

  (* WoD / Double Cross: the text starts with the two counters; the value is the first of them *)
  Theorem annotation_total_wod_header rfuel fuel addLine pool points threshold isGE mode s succ all rounds txt s' :
    roll_wod next rfuel fuel addLine pool points threshold isGE mode s = Done ((succ, all, rounds, txt), s') ->
    exists tail, txt = "成功" ++ show_Z succ ++ "/" ++ show_Z all ++ tail.
  Proof.
    unfold roll_wod. intros H.
    destruct (wod_rounds next rfuel fuel addLine points threshold isGE mode pool (pool <? 15) pool 0 1 [] s)
      as [[[[[succ0 all0] rounds0] details] s1]|]; [|discriminate].
    inversion H; subst. eexists. reflexivity.
  Qed.
  Theorem annotation_total_dc_header rfuel fuel addLine pool points mode s result all rounds txt s' :
    roll_dc next rfuel fuel addLine pool points mode s = Done ((result, all, rounds, txt), s') ->
    exists head tail, txt = head ++ "出目" ++ show_Z result ++ "/" ++ show_Z all ++ tail /\ (head = "" \/ head = "大失败 ").
  Proof.
    unfold roll_dc. intros H.
    destruct (dc_rounds next rfuel fuel addLine points mode pool (pool <? 15) pool 0 1 [] s)
      as [[[[[result0 all0] rounds0] details] s1]|]; [|discriminate].
    cbv zeta in H. inversion H; subst.
    destruct (result =? 1).
    - exists "大失败 ". eexists. split; [|right; reflexivity]. reflexivity.
    - exists "". eexists. split; [|left; reflexivity]. reflexivity.
  Qed.
End Source.

Definition tokc (a : ascii) : bool :=
  numc a || existsb (Ascii.eqb a) (list_ascii_of_string "*<>").

Lemma show_Z_tokc z : allc tokc (show_Z z) = true.
Proof.
  apply (allc_impl numc); [|apply show_Z_numc]. intros a H. unfold tokc. rewrite H. reflexivity.
Qed.

Definition okstr (s : string) : Prop := allc tokc s = true /\ s <> "".

Lemma items_split l : forall l' t t',
  Forall okstr l -> Forall okstr l' ->
  join "," l ++ String "}" t = join "," l' ++ String "}" t' -> l = l' /\ t = t'.
Proof.
  induction l as [|x l IH]; intros l' t t' Hl Hl' E; destruct l' as [|y l'].
  - cbn [join append] in E. inversion E. split; reflexivity.
  - exfalso. rewrite join_cons, sapp_assoc in E. cbn [join append] in E.
    inversion Hl' as [|? ? [Hy1 Hy2] _]; subst.
    destruct y as [|c y]; [congruence|]. cbn [append allc] in *. inversion E; subst c.
    discriminate.
  - exfalso. rewrite join_cons, sapp_assoc in E. cbn [join append] in E.
    inversion Hl as [|? ? [Hx1 Hx2] _]; subst.
    destruct x as [|c x]; [congruence|]. cbn [append allc] in *. inversion E; subst c.
    discriminate.
  - rewrite !join_cons, !sapp_assoc in E.
    inversion Hl as [|? ? [Hx1 Hx2] Hl0]; subst. inversion Hl' as [|? ? [Hy1 Hy2] Hl0']; subst.
    apply (split_tok tokc) in E; [|assumption|assumption| |].
    + destruct E as [-> E].
      destruct l as [|x2 l]; destruct l' as [|y2 l']; cbn [append] in E.
      * inversion E. split; reflexivity.
      * discriminate.
      * discriminate.
      * inversion E as [E0].
        destruct (IH (y2 :: l') t t' Hl0 Hl0' E0) as [-> ->]. split; reflexivity.
    + destruct l; reflexivity.
    + destruct l'; reflexivity.
Qed.

Definition brace (l : list string) : string := String "{" (join "," l ++ String "}" "").

Lemma brace_app l m : brace l ++ m = String "{" (join "," l ++ String "}" m).
Proof. unfold brace. cbn [append]. rewrite sapp_assoc. reflexivity. Qed.

Lemma braces_inj ls : forall ls',
  Forall (Forall okstr) ls -> Forall (Forall okstr) ls' ->
  join "," (map brace ls) = join "," (map brace ls') -> ls = ls'.
Proof.
  induction ls as [|l ls IH]; intros ls' H H' E; destruct ls' as [|l' ls']; cbn [map] in E.
  - reflexivity.
  - rewrite join_cons, brace_app in E. discriminate.
  - rewrite join_cons, brace_app in E. discriminate.
  - rewrite !join_cons, !brace_app in E. inversion E as [E0]. clear E.
    inversion H as [|? ? Hl Hls]; subst. inversion H' as [|? ? Hl' Hls']; subst.
    apply items_split in E0; [|assumption|assumption]. destruct E0 as [-> E0].
    f_equal.
    destruct ls as [|l2 ls]; destruct ls' as [|l2' ls']; cbn [map append] in E0.
    + reflexivity.
    + discriminate.
    + discriminate.
    + inversion E0 as [E1]. apply (IH (l2' :: ls')); assumption.
Qed.

Lemma map_inj {A B} (f : A -> B) (Hf : forall x y, f x = f y -> x = y) l :
  forall l', map f l = map f l' -> l = l'.
Proof.
  induction l as [|x l IH]; intros l' E; destruct l' as [|y l']; cbn [map] in E;
    try discriminate; [reflexivity|].
  inversion E. f_equal; [apply Hf; assumption|apply IH; assumption].
Qed.

Definition die_ok (die : Z -> string) : Prop :=
  (forall x, okstr (die x)) /\ (forall x y, die x = die y -> x = y).

Lemma rounds_text_braces die rs : rounds_text die rs = join "," (map brace (map (map die) rs)).
Proof. unfold rounds_text. rewrite map_map. reflexivity. Qed.

Theorem rounds_text_inj die rs rs' :
  die_ok die -> rounds_text die rs = rounds_text die rs' -> rs = rs'.
Proof.
  intros [Hok Hinj] E. rewrite !rounds_text_braces in E.
  assert (Hall : forall qs : list (list Z), Forall (Forall okstr) (map (map die) qs)).
  { intros qs. apply Forall_forall. intros l Hin. apply in_map_iff in Hin.
    destruct Hin as (r & <- & _). apply Forall_forall. intros t Ht. apply in_map_iff in Ht.
    destruct Ht as (x & <- & _). apply Hok. }
  apply braces_inj in E; [|apply Hall|apply Hall].
  exact (map_inj (map die) (map_inj die Hinj) _ _ E).
Qed.

Lemma rounds_text_head die rs :
  rounds_text die rs = "" \/ exists t, rounds_text die rs = String "{" t.
Proof.
  destruct rs as [|r rs]; [left; reflexivity|right].
  rewrite rounds_text_braces. cbn [map]. rewrite join_cons, brace_app. eexists. reflexivity.
Qed.

Lemma wod_die_ok addLine threshold isGE : die_ok (wod_die_text addLine threshold isGE).
Proof.
  split.
  - intros x. unfold okstr, wod_die_text. cbv zeta.
    destruct (show_Z_head x) as (c & t & Ex & _).
    split.
    + destruct (wod_reach addLine x); destruct (wod_succ threshold isGE x);
        rewrite ?allc_app, ?show_Z_tokc; reflexivity.
    + destruct (wod_reach addLine x); [cbn [append]; discriminate|].
      rewrite Ex. cbn [append]. discriminate.
  - intros x y E. unfold wod_die_text in E. cbv zeta in E.
    apply (show_Z_framed_inj "<" (if wod_reach addLine x then "<" else "") (if wod_reach addLine y then "<" else "")
             ((if wod_succ threshold isGE x then "*" else "") ++ (if wod_reach addLine x then ">" else ""))
             ((if wod_succ threshold isGE y then "*" else "") ++ (if wod_reach addLine y then ">" else ""))).
    + reflexivity.
    + destruct (wod_reach addLine x); auto.
    + destruct (wod_reach addLine y); auto.
    + destruct (wod_succ threshold isGE x); destruct (wod_reach addLine x); reflexivity.
    + destruct (wod_succ threshold isGE y); destruct (wod_reach addLine y); reflexivity.
    + destruct (wod_reach addLine x); destruct (wod_reach addLine y);
        cbn [append] in *; rewrite ?sapp_assoc, ?sapp_nil_r in *; exact E.
Qed.

Lemma dc_die_ok addLine : die_ok (dc_die_text addLine).
Proof.
  split.
  - intros x. unfold okstr, dc_die_text.
    destruct (show_Z_head x) as (c & t & Ex & _).
    split.
    + destruct (dc_reach addLine x); rewrite ?allc_app, ?show_Z_tokc; reflexivity.
    + destruct (dc_reach addLine x); [cbn [append]; discriminate|].
      rewrite Ex. discriminate.
  - intros x y E. unfold dc_die_text in E.
    apply (show_Z_framed_inj "<" (if dc_reach addLine x then "<" else "") (if dc_reach addLine y then "<" else "")
             (if dc_reach addLine x then ">" else "") (if dc_reach addLine y then ">" else "")).
    + reflexivity.
    + destruct (dc_reach addLine x); auto.
    + destruct (dc_reach addLine y); auto.
    + destruct (dc_reach addLine x); reflexivity.
    + destruct (dc_reach addLine y); reflexivity.
    + destruct (dc_reach addLine x); destruct (dc_reach addLine y);
        cbn [append]; rewrite ?sapp_nil_r; exact E.
Qed.

Definition listing_ok (od : option string) : Prop :=
  match od with None => True | Some d => d = "" \/ exists t, d = String "{" t end.

Lemma pool_text_inj head res all rounds od res' all' rounds' od' :
  1 <= rounds -> 1 <= rounds' -> listing_ok od -> listing_ok od' ->
  pool_text head res all rounds od = pool_text head res' all' rounds' od' ->
  res = res' /\ all = all' /\ rounds = rounds' /\ od = od'.
Proof.
  intros Hr Hr' Hd Hd' E. unfold pool_text in E. apply sapp_inv_head in E.
  apply (show_Z_framed_inj "" "" "") in E; [|reflexivity|auto|auto|reflexivity|reflexivity].
  destruct E as (E1 & _ & [= E2]).
  assert (Hod_head : forall o : option string,
             head_not numc (match o with Some d => " " ++ d | None => "" end) = true)
    by (intros [d|]; reflexivity).
  apply (show_Z_framed_inj "" "" "") in E2; [|reflexivity|auto|auto| |];
    [|destruct (1 <? rounds); [reflexivity|apply Hod_head]
     |destruct (1 <? rounds'); [reflexivity|apply Hod_head]].
  destruct E2 as (E2 & _ & E3).
  split; [exact E1|]. split; [exact E2|].
  assert (Hod : forall o o' : option string,
             match o with Some d => " " ++ d | None => "" end
             = match o' with Some d => " " ++ d | None => "" end -> o = o').
  { intros [d|] [d'|] Eo; cbn [append] in Eo; try discriminate; [|reflexivity].
    inversion Eo. reflexivity. }
  destruct (Z.ltb_spec 1 rounds) as [H1|H1]; destruct (Z.ltb_spec 1 rounds') as [H1'|H1'].
  - apply (show_Z_framed_inj " 轮数:" " 轮数:" " 轮数:") in E3;
      [|reflexivity|auto|auto|apply Hod_head|apply Hod_head].
    destruct E3 as (E3 & _ & E4). split; [exact E3|]. apply Hod; exact E4.
  - exfalso. destruct od' as [d'|]; cbn [append] in E3; [|discriminate].
    cbn [listing_ok] in Hd'. destruct Hd' as [->|[t ->]]; discriminate.
  - exfalso. destruct od as [d|]; cbn [append] in E3; [|discriminate].
    cbn [listing_ok] in Hd. destruct Hd as [->|[t ->]]; discriminate.
  - split; [lia|]. cbn [append] in E3. apply Hod; exact E3.
Qed.

Lemma pool_render_inj head die (D : bool) rs res all rounds (D' : bool) rs' res' all' rounds' :
  die_ok die -> 1 <= rounds -> 1 <= rounds' ->
  pool_text head res all rounds (if D then Some (rounds_text die rs) else None)
    = pool_text head res' all' rounds' (if D' then Some (rounds_text die rs') else None) ->
  res = res' /\ all = all' /\ rounds = rounds' /\ D = D' /\ (D = true -> rs = rs').
Proof.
  intros Hdie Hr Hr' E.
  apply pool_text_inj in E; [|assumption|assumption| |];
    [|destruct D; [apply rounds_text_head|exact I]|destruct D'; [apply rounds_text_head|exact I]].
  destruct E as (E1 & E2 & E3 & E4). split; [exact E1|]. split; [exact E2|]. split; [exact E3|].
  destruct D; destruct D'; try discriminate; (split; [reflexivity|]); [|discriminate].
  intros _. injection E4 as E4. exact (rounds_text_inj _ _ _ Hdie E4).
Qed.

Theorem wod_render_inj addLine threshold isGE pool succ all rounds rs pool' succ' all' rounds' rs' :
  1 <= rounds -> 1 <= rounds' ->
  wod_render addLine threshold isGE pool succ all rounds rs
    = wod_render addLine threshold isGE pool' succ' all' rounds' rs' ->
  succ = succ' /\ all = all' /\ rounds = rounds' /\
  pool_displayed (wod_reach addLine) pool rs = pool_displayed (wod_reach addLine) pool' rs' /\
  (pool_displayed (wod_reach addLine) pool rs = true -> rs = rs').
Proof. apply pool_render_inj, wod_die_ok. Qed.

Lemma dc_prefix_strip r a n od r' a' n' od' :
  (if r =? 1 then "大失败 " else "") ++ pool_text "出目" r a n od
    = (if r' =? 1 then "大失败 " else "") ++ pool_text "出目" r' a' n' od' ->
  pool_text "出目" r a n od = pool_text "出目" r' a' n' od'.
Proof.
  intros E. destruct (r =? 1); destruct (r' =? 1).
  - apply sapp_inv_head in E. exact E.
  - exfalso. unfold pool_text in E. cbn [append] in E. discriminate.
  - exfalso. unfold pool_text in E. cbn [append] in E. discriminate.
  - exact E.
Qed.

Theorem dc_render_inj addLine pool result all rounds rs pool' result' all' rounds' rs' :
  1 <= rounds -> 1 <= rounds' ->
  dc_render addLine pool result all rounds rs = dc_render addLine pool' result' all' rounds' rs' ->
  result = result' /\ all = all' /\ rounds = rounds' /\
  pool_displayed (dc_reach addLine) pool rs = pool_displayed (dc_reach addLine) pool' rs' /\
  (pool_displayed (dc_reach addLine) pool rs = true -> rs = rs').
Proof.
  intros Hr Hr' E. apply dc_prefix_strip in E.
  exact (pool_render_inj _ _ _ _ _ _ _ _ _ _ _ _ (dc_die_ok addLine) Hr Hr' E).
Qed.

Lemma chain_len_le reach n rs :
  round_chain reach n rs -> (1 <= n)%nat -> (length rs <= length (concat rs))%nat.
Proof.
  induction 1 as [n r Hl Hf|n r rs Hl Hf Hc IH]; intros Hn; cbn [concat length]; rewrite app_length.
  - cbn [length]. lia.
  - assert (1 <= length (filter reach r))%nat.
    { destruct (filter reach r); [congruence|cbn [length]; lia]. }
    specialize (IH ltac:(assumption)). lia.
Qed.

Lemma pool_recount head reach die pool rs res all rounds res' all' rounds' rs' :
  die_ok die -> round_chain reach (Z.to_nat pool) rs -> 1 <= pool ->
  rounds = Z.of_nat (length rs) -> 1 <= rounds' ->
  (Z.of_nat (length (concat rs)) < two63 -> all = Z.of_nat (length (concat rs))) ->
  pool_text head res all rounds (if pool_displayed reach pool rs then Some (rounds_text die rs) else None)
    = pool_text head res' all' rounds' (Some (rounds_text die rs')) ->
  res' = res /\ all' = all /\ rounds' = rounds /\ rs' = rs /\
  pool < 15 /\ all = Z.of_nat (length (concat rs)) /\ all <= 100 /\ rounds <= all.
Proof.
  intros Hdie Hc Hp Hr Hr' Ha Ht.
  pose proof (round_chain_nonempty _ _ _ Hc) as Hne.
  assert (Hr1 : 1 <= rounds) by (destruct rs; [congruence|cbn [length] in Hr; lia]).
  apply (pool_render_inj _ _ _ _ _ _ _ true _ _ _ _ Hdie Hr1 Hr') in Ht.
  destruct Ht as (E1 & E2 & E3 & Hd & E5).
  destruct (pool_displayed_true _ _ _ Hc ltac:(lia) Hd) as (H15 & H100 & _).
  pose proof (chain_len_le _ _ _ Hc ltac:(lia)) as Hll.
  rewrite <- (E5 Hd). specialize (Ha ltac:(unfold two63; lia)). repeat split; lia.
Qed.

Section Recount.
  Variable S : Type.
  Variable next : S -> N * S.
  Hypothesis next_word : forall s, (fst (next s) < W64)%N.

  (* WoD: WHENEVER the text displays dice — i.e. it reads as a header
     followed by a list of rounds rs' — those displayed dice are exactly the dice rolled, they
     form a legal chain, and the header numbers are their recount. *)
  Theorem roll_wod_recount rfuel fuel addLine pool points threshold isGE mode s succ all rounds txt s' :
    wod_check addLine pool points threshold = true ->
    points <= MaxInt64 - 1 ->
    roll_wod next rfuel fuel addLine pool points threshold isGE mode s
      = Done ((succ, all, rounds, txt), s') ->
    forall succ' all' rounds' rs',
      1 <= rounds' ->
      txt = pool_text "成功" succ' all' rounds'
              (Some (rounds_text (wod_die_text addLine threshold isGE) rs')) ->
      succ' = succ /\ all' = all /\ rounds' = rounds /\
      round_chain (wod_reach addLine) (Z.to_nat pool) rs' /\
      Forall (Forall (fun x => 1 <= x <= points)) rs' /\
      succ = countZ (wod_succ threshold isGE) (concat rs') /\
      all = Z.of_nat (length (concat rs')) /\
      rounds = Z.of_nat (length rs') /\
      pool < 15 /\ all <= 100.
  Proof.
    intros Hchk Hpts H succ' all' rounds' rs' Hr' Ht.
    destruct (roll_wod_text S next next_word _ _ _ _ _ _ _ _ _ _ _ _ _ _ Hchk Hpts H)
      as (rs & Hpool & Hc & Hf & Hs & Hr & Ha & Hlen & Htxt).
    rewrite Htxt in Ht.
    apply (pool_recount _ _ _ _ _ _ _ _ _ _ _ _ (wod_die_ok addLine threshold isGE) Hc) in Ht; try assumption; [|lia].
    destruct Ht as (-> & -> & -> & -> & H15 & Hall & H100 & _). repeat split; assumption.
  Qed.

  (* Z.of_nat rfuel * 20000 < 2^63 only
     says the int64 dice counter cannot wrap around (at most rfuel rounds of at most 20000 dice). *)
  Theorem roll_wod_text_closed rfuel fuel addLine pool points threshold isGE mode s succ all rounds txt s' :
    wod_check addLine pool points threshold = true ->
    points <= MaxInt64 - 1 ->
    Z.of_nat rfuel * 20000 < two63 ->
    roll_wod next rfuel fuel addLine pool points threshold isGE mode s
      = Done ((succ, all, rounds, txt), s') ->
    exists rs : list (list Z),
      round_chain (wod_reach addLine) (Z.to_nat pool) rs /\
      Forall (Forall (fun x => 1 <= x <= points)) rs /\
      succ = countZ (wod_succ threshold isGE) (concat rs) /\
      rounds = Z.of_nat (length rs) /\
      all = Z.of_nat (length (concat rs)) /\
      txt = pool_text "成功" succ all rounds
              (if (pool <? 15) && (all <=? 100)
               then Some (rounds_text (wod_die_text addLine threshold isGE) rs) else None).
  Proof.
    intros Hchk Hpts Hfuel H.
    destruct (roll_wod_text S next next_word _ _ _ _ _ _ _ _ _ _ _ _ _ _ Hchk Hpts H)
      as (rs & Hpool & Hc & Hf & Hs & Hr & Ha & Hlen & Htxt).
    destruct (chain_closed _ _ _ rfuel Hc) as [Hnw Hdisp]; [lia|exact Hlen|nia|].
    specialize (Ha Hnw).
    exists rs. repeat split; try assumption.
    rewrite Htxt. unfold wod_render. rewrite Hdisp, <- Ha. reflexivity.
  Qed.

  Theorem roll_dc_recount rfuel fuel addLine pool points mode s result all rounds txt s' :
    dc_check addLine pool points = true ->
    points <= MaxInt64 - 1 ->
    roll_dc next rfuel fuel addLine pool points mode s = Done ((result, all, rounds, txt), s') ->
    forall result' all' rounds' rs',
      1 <= rounds' ->
      txt = (if result' =? 1 then "大失败 " else "") ++
            pool_text "出目" result' all' rounds' (Some (rounds_text (dc_die_text addLine) rs')) ->
      result' = result /\ all' = all /\ rounds' = rounds /\
      round_chain (dc_reach addLine) (Z.to_nat pool) rs' /\
      Forall (Forall (fun x => 1 <= x <= points)) rs' /\
      result = fold_left (fun a r => wrap64 (a + dc_round_max addLine r)) rs' 0 /\
      (points <= 10 -> result = 10 * (rounds - 1) + dice_max (last rs' [])) /\
      all = Z.of_nat (length (concat rs')) /\
      rounds = Z.of_nat (length rs') /\
      pool < 15 /\ all <= 100.
  Proof.
    intros Hchk Hpts H result' all' rounds' rs' Hr' Ht.
    destruct (roll_dc_text S next next_word _ _ _ _ _ _ _ _ _ _ _ _ Hchk Hpts H)
      as (rs & Hpool & Hc & Hf & Hr & Ha & Hres & H10 & Hlen & Htxt).
    rewrite Htxt in Ht. apply dc_prefix_strip in Ht.
    apply (pool_recount _ _ _ _ _ _ _ _ _ _ _ _ (dc_die_ok addLine) Hc) in Ht; try assumption; [|lia].
    destruct Ht as (-> & -> & -> & -> & H15 & Hall & H100 & Hra). repeat split; try assumption.
    intros Hp10. apply H10; [exact Hp10|unfold two63; lia].
  Qed.

  Theorem roll_dc_text_closed rfuel fuel addLine pool points mode s result all rounds txt s' :
    dc_check addLine pool points = true ->
    points <= MaxInt64 - 1 ->
    Z.of_nat rfuel * 20000 < two63 ->
    roll_dc next rfuel fuel addLine pool points mode s = Done ((result, all, rounds, txt), s') ->
    exists rs : list (list Z),
      round_chain (dc_reach addLine) (Z.to_nat pool) rs /\
      Forall (Forall (fun x => 1 <= x <= points)) rs /\
      result = fold_left (fun a r => wrap64 (a + dc_round_max addLine r)) rs 0 /\
      rounds = Z.of_nat (length rs) /\
      all = Z.of_nat (length (concat rs)) /\
      txt = (if result =? 1 then "大失败 " else "") ++
            pool_text "出目" result all rounds
              (if (pool <? 15) && (all <=? 100)
               then Some (rounds_text (dc_die_text addLine) rs) else None).
  Proof.
    intros Hchk Hpts Hfuel H.
    destruct (roll_dc_text S next next_word _ _ _ _ _ _ _ _ _ _ _ _ Hchk Hpts H)
      as (rs & Hpool & Hc & Hf & Hr & Ha & Hres & H10 & Hlen & Htxt).
    destruct (chain_closed _ _ _ rfuel Hc) as [Hnw Hdisp]; [lia|exact Hlen|nia|].
    specialize (Ha Hnw).
    exists rs. repeat split; try assumption.
    rewrite Htxt. unfold dc_render. rewrite Hdisp, <- Ha. reflexivity.
  Qed.
End Recount.

Lemma cc_app c a b : count_char c (a ++ b) = count_char c a + count_char c b.
Proof. induction a as [|x a IH]; cbn [append count_char]; [reflexivity|]. rewrite IH. lia. Qed.

Lemma cc_allc c P s : allc P s = true -> P c = false -> count_char c s = 0.
Proof.
  intros Hs Hc. induction s as [|x s IH]; cbn [count_char allc] in *; [reflexivity|].
  apply andb_true_iff in Hs. destruct Hs as [Hx Hs]. rewrite (IH Hs).
  destruct (Ascii.eqb_spec x c) as [->|_]; [congruence|reflexivity].
Qed.

Lemma cc_join c l :
  count_char c "," = 0 ->
  count_char c (join "," l) = fold_right Z.add 0 (map (count_char c) l).
Proof.
  intros Hsep. induction l as [|x l IH]; [reflexivity|].
  rewrite join_cons, cc_app. cbn [map fold_right]. rewrite <- IH.
  destruct l as [|y l]; [reflexivity|]. rewrite cc_app, Hsep. reflexivity.
Qed.

Lemma cc_rounds_text c (f : Z -> bool) die rs :
  count_char c "," = 0 -> count_char c "{" = 0 -> count_char c "}" = 0 ->
  (forall x, count_char c (die x) = if f x then 1 else 0) ->
  count_char c (rounds_text die rs) = countZ f (concat rs).
Proof.
  intros H1 H2 H3 Hdie. unfold rounds_text. rewrite (cc_join c _ H1), map_map.
  induction rs as [|r rs IH]; cbn [map fold_right concat]; [reflexivity|].
  rewrite IH, countZ_app. f_equal.
  unfold round_text. rewrite !cc_app, H2, H3, (cc_join c _ H1), map_map.
  clear IH. induction r as [|x r IHr]; cbn [map fold_right]; [reflexivity|].
  rewrite countZ_cons, Hdie. lia.
Qed.

Lemma cc_star_wod_die addLine threshold isGE x :
  count_char "*" (wod_die_text addLine threshold isGE x) = if wod_succ threshold isGE x then 1 else 0.
Proof.
  assert (H0 : count_char "*" (show_Z x) = 0) by (apply (cc_allc _ numc); [apply show_Z_numc|reflexivity]).
  unfold wod_die_text. cbv zeta.
  destruct (wod_reach addLine x); destruct (wod_succ threshold isGE x);
    rewrite ?cc_app, H0; reflexivity.
Qed.

Theorem wod_render_stars addLine threshold isGE pool succ all rounds rs :
  count_char "*" (wod_render addLine threshold isGE pool succ all rounds rs)
  = if pool_displayed (wod_reach addLine) pool rs
    then countZ (wod_succ threshold isGE) (concat rs) else 0.
Proof.
  assert (H0 : forall z, count_char "*" (show_Z z) = 0).
  { intros z. apply (cc_allc _ numc); [apply show_Z_numc|reflexivity]. }
  unfold wod_render, pool_text. rewrite !cc_app, !H0.
  assert (Hr : count_char "*" (if 1 <? rounds then " 轮数:" ++ show_Z rounds else "") = 0).
  { destruct (1 <? rounds); [rewrite cc_app, H0|]; reflexivity. }
  rewrite Hr.
  destruct (pool_displayed (wod_reach addLine) pool rs); [|reflexivity].
  rewrite cc_app, (cc_rounds_text "*" (wod_succ threshold isGE)); try reflexivity.
  apply cc_star_wod_die.
Qed.

Section Stars.
  Variable S : Type.
  Variable next : S -> N * S.
  Hypothesis next_word : forall s, (fst (next s) < W64)%N.

  Theorem roll_wod_stars rfuel fuel addLine pool points threshold isGE mode s succ all rounds txt s' :
    wod_check addLine pool points threshold = true ->
    points <= MaxInt64 - 1 ->
    Z.of_nat rfuel * 20000 < two63 ->
    roll_wod next rfuel fuel addLine pool points threshold isGE mode s
      = Done ((succ, all, rounds, txt), s') ->
    count_char "*" txt = if (pool <? 15) && (all <=? 100) then succ else 0.
  Proof.
    intros Hchk Hpts Hfuel H.
    destruct (roll_wod_text S next next_word _ _ _ _ _ _ _ _ _ _ _ _ _ _ Hchk Hpts H)
      as (rs & Hpool & Hc & Hf & Hs & Hr & Ha & Hlen & Htxt).
    destruct (chain_closed _ _ _ rfuel Hc) as [Hnw Hdisp]; [lia|exact Hlen|nia|].
    rewrite Htxt, wod_render_stars, Hdisp, <- (Ha Hnw), <- Hs. reflexivity.
  Qed.
End Stars.

Print Assumptions wod_render_stars.
Print Assumptions roll_wod_stars.

(* reference splitter (examples only): cut a stream of faces into the chain of rounds *)
Fixpoint split_rounds (fuel : nat) (reach : Z -> bool) (n : nat) (faces : list Z) : list (list Z) :=
  match fuel with
  | O => []
  | Datatypes.S f =>
    let r := firstn n faces in
    let k := length (filter reach r) in
    r :: (if Nat.eqb k 0 then [] else split_rounds f reach k (skipn n faces))
  end.

(* a word source whose d10 faces are known by construction: face = word + 1 *)
Definition ex_words : list N := map (fun i => N.of_nat ((i * 7 + i / 10 + 3) mod 10)) (seq 0 900).
Definition ex_faces : list Z := map (fun w => Z.of_N w + 1) ex_words.

Definition wod_agrees (addLine pool threshold : Z) (isGE : bool) : Prop :=
  match roll_wod list_next 1000 64 addLine pool 10 threshold isGE 0 ex_words with
  | Done ((succ, all, rounds, txt), _) =>
    wod_check addLine pool 10 threshold = true /\
    txt = wod_render addLine threshold isGE pool succ all rounds
            (split_rounds 1000 (wod_reach addLine) (Z.to_nat pool) ex_faces)
  | OutOfFuel => False
  end.

Definition dc_agrees (addLine pool mode : Z) (faces : list Z) : Prop :=
  match roll_dc list_next 1000 64 addLine pool 10 mode ex_words with
  | Done ((result, all, rounds, txt), _) =>
    dc_check addLine pool 10 = true /\
    txt = dc_render addLine pool result all rounds
            (split_rounds 1000 (dc_reach addLine) (Z.to_nat pool) faces)
  | OutOfFuel => False
  end.

(* a run's result without its final state: leaves the unread words of the source unevaluated *)
Lemma done_result {A St} (o : outcome (A * St)) (r : A) (P : Prop) :
  match o with Done (r', _) => r' = r | OutOfFuel => False end -> P ->
  exists s', o = Done (r, s') /\ P.
Proof.
  destruct o as [[r' s']|]; [intros -> HP; exists s'; split; [reflexivity|exact HP]|contradiction].
Qed.

Example wod_text_ex_small :
  exists s', roll_wod list_next 1000 64 8 5 10 6 true 0 ex_words
             = Done ((3, 7, 3, "成功3/7 轮数:3 {4,1,<8*>,5,2},{<9*>},{6*}"), s') /\
  wod_render 8 6 true 5 3 7 3 [[4; 1; 8; 5; 2]; [9]; [6]]
    = "成功3/7 轮数:3 {4,1,<8*>,5,2},{<9*>},{6*}".
Proof. apply done_result; vm_compute; reflexivity. Qed.

Example wod_text_ex1 : wod_agrees 8 5 6 true.            Proof. vm_compute. split; reflexivity. Qed.
(* 14 dice, 13 rounds, 67 dice in total: all displayed; success = die <= threshold *)
Example wod_text_ex2 : wod_agrees 3 14 6 false.          Proof. vm_compute. split; reflexivity. Qed.
Example wod_text_ex3 : wod_agrees 9 15 6 false.          Proof. vm_compute. split; reflexivity. Qed.
(* first pool of 14 but more than 100 dice in total: nothing displayed *)
Example wod_text_ex4 : wod_agrees 2 14 8 true.           Proof. vm_compute. split; reflexivity. Qed.
Example wod_text_ex4_elided :
  match roll_wod list_next 1000 64 2 14 10 8 true 0 ex_words with
  | Done ((succ, all, rounds, txt), _) =>
    txt = "成功" ++ show_Z succ ++ "/" ++ show_Z all ++ " 轮数:" ++ show_Z rounds /\ 100 < all
  | OutOfFuel => False
  end.
Proof. vm_compute. split; reflexivity. Qed.
Example wod_text_ex5 : wod_agrees 0 7 8 true.            Proof. vm_compute. split; reflexivity. Qed.

Example dc_text_ex_small :
  exists s', roll_dc list_next 1000 64 8 5 10 0 ex_words
             = Done ((26, 7, 3, "出目26/7 轮数:3 {4,1,<8>,5,2},{<9>},{6}"), s') /\
  dc_render 8 5 26 7 3 [[4; 1; 8; 5; 2]; [9]; [6]] = "出目26/7 轮数:3 {4,1,<8>,5,2},{<9>},{6}".
Proof. apply done_result; vm_compute; reflexivity. Qed.

Example dc_text_ex1 : dc_agrees 8 5 0 ex_faces.          Proof. vm_compute. split; reflexivity. Qed.
Example dc_text_ex2 : dc_agrees 3 14 0 ex_faces.         Proof. vm_compute. split; reflexivity. Qed.
Example dc_text_ex3 : dc_agrees 9 15 0 ex_faces.         Proof. vm_compute. split; reflexivity. Qed.
Example dc_text_ex4 : dc_agrees 2 14 0 ex_faces.         Proof. vm_compute. split; reflexivity. Qed.
Example dc_text_ex_fumble :
  exists s', roll_dc list_next 1000 64 8 5 10 (-1) ex_words
             = Done ((1, 5, 1, "大失败 出目1/5 {1,1,1,1,1}"), s') /\
  dc_render 8 5 1 5 1 [[1; 1; 1; 1; 1]] = "大失败 出目1/5 {1,1,1,1,1}".
Proof. apply done_result; vm_compute; reflexivity. Qed.
Example dc_text_ex5 : dc_agrees 8 5 (-1) (repeat 1 100).  Proof. vm_compute. split; reflexivity. Qed.

Print Assumptions roll_wod_text.
Print Assumptions roll_wod_spec.
Print Assumptions roll_dc_spec.
Print Assumptions roll_dc_text.
Print Assumptions roll_wod_recount.
Print Assumptions roll_dc_recount.
Print Assumptions roll_wod_text_closed.
Print Assumptions roll_dc_text_closed.
Print Assumptions wod_render_inj.
Print Assumptions dc_render_inj.
Print Assumptions rounds_text_inj.

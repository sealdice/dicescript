(* Facts about the reference compiler (Model/Compile.v) and the syntax (Model/Ast.v) that do not mention running the VM:
   lengths of compiled code (in Z and in nat), induction over expressions through the items of array literals. *)
From Coq Require Import String NArith ZArith List Bool Lia.
From DS Require Import Model.Str Model.Value Model.VM Model.Ast Model.Compile Proofs.VMFacts.
Import ListNotations.
Open Scope Z_scope.

Lemma ssize_compile : forall s d bo ao, zlen (compile_stmt d bo ao s) = ssize d s.
Proof.
  induction s; intros d bo ao; cbn [compile_stmt ssize]; rewrite ?zlen_app, ?zlen_cons, ?zlen_nil; unfold pops;
    rewrite ?zlen_app, ?zlen_cons, ?zlen_nil, ?zlen_repeat, ?IHs1, ?IHs2, ?IHs; lia.
Qed.

Section ExprInd.
  Variable P : expr -> Prop.
  Hypothesis HInt : forall n, P (EInt n).
  Hypothesis HStr : forall s, P (EStr s).
  Hypothesis HNull : P ENull.
  Hypothesis HTrue : P ETrue.
  Hypothesis HFalse : P EFalse.
  Hypothesis HVar : forall x, P (EVar x).
  Hypothesis HAssign : forall x e, P e -> P (EAssign x e).
  Hypothesis HUn : forall o e, P e -> P (EUn o e).
  Hypothesis HBin : forall o l r, P l -> P r -> P (EBin o l r).
  Hypothesis HOr : forall l r, P l -> P r -> P (EOr l r).
  Hypothesis HTern : forall c a b, P c -> P a -> P b -> P (ETern c a b).
  Hypothesis HArr : forall l, Forall P l -> P (EArr l).
  Hypothesis HIdx : forall e i, P e -> P i -> P (EIdx e i).
  Hypothesis HRoll : forall x y, P x -> P y -> P (ERoll x y).
  Fixpoint expr_ind' (e : expr) : P e :=
    match e with
    | EInt n => HInt n
    | EStr s => HStr s
    | ENull => HNull
    | ETrue => HTrue
    | EFalse => HFalse
    | EVar x => HVar x
    | EAssign x e1 => HAssign x e1 (expr_ind' e1)
    | EUn o e1 => HUn o e1 (expr_ind' e1)
    | EBin o l r => HBin o l r (expr_ind' l) (expr_ind' r)
    | EOr l r => HOr l r (expr_ind' l) (expr_ind' r)
    | ETern c a b => HTern c a b (expr_ind' c) (expr_ind' a) (expr_ind' b)
    | EArr l => HArr l ((fix go (l : list expr) : Forall P l :=
                           match l with [] => Forall_nil P | x :: r => Forall_cons x (expr_ind' x) (go r) end) l)
    | EIdx e1 i => HIdx e1 i (expr_ind' e1) (expr_ind' i)
    | ERoll x y => HRoll x y (expr_ind' x) (expr_ind' y)
    end.
End ExprInd.

Fixpoint citems (l : list expr) : code := match l with [] => [] | x :: r => compile_expr x ++ citems r end.
Lemma compile_arr : forall l, compile_expr (EArr l) = citems l ++ [I OpPushArr (OInt (zlen l))].
Proof. intros l. reflexivity. Qed.

Fixpoint sl (dd : nat) (s : stmt) : nat :=
  match s with
  | SNop => 0
  | SExpr e => List.length (compile_expr e)
  | SSeq a b => sl dd a + sl dd b
  | SIf c t e => List.length (compile_expr c) + 2 + sl (S dd) t + 1 + sl (S dd) e + 1
  | SWhile c b => 1 + List.length (compile_expr c) + 1 + sl 0 b + 1 + 1
  | SBreak | SContinue => dd + 1
  end%nat.

Lemma pops_len dd : List.length (pops dd) = dd.
Proof. apply repeat_length. Qed.

Lemma compile_stmt_len s : forall dd bo ao, List.length (compile_stmt dd bo ao s) = sl dd s.
Proof.
  induction s; intros dd bo ao; cbn [compile_stmt sl]; rewrite ?app_length, ?pops_len; cbn [List.length];
    rewrite ?IHs1, ?IHs2, ?IHs; lia.
Qed.

Lemma ssize_sl s : forall dd, ssize dd s = Z.of_nat (sl dd s).
Proof.
  induction s; intros dd; cbn [ssize sl]; unfold zlen; rewrite ?IHs1, ?IHs2, ?IHs; lia.
Qed.

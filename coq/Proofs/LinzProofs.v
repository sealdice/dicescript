(* Soundness and completeness of the Wing-Gong linearizability checker of Model/Linz.v
   with respect to the textbook definition of linearizability. *)
From stdpp Require Import gmap.
From Coq Require Import NArith Lia.
From DS Require Import Model.ValueMap Model.Linz.

Definition precedes (a b : event) : Prop := (e_ret a < e_inv b)%N.

(* Positions, not `In`, so that equal events at different positions are told apart.
   Taking i = j shows that it also forbids an event preceding itself, which is exactly what
   the checker does (`minimal e pending` tests e against itself), so NO well-formedness
   hypothesis (e_inv < e_ret) is needed. *)
Definition respects_rt (l : list event) : Prop :=
  ∀ i j a b, l !! i = Some a → l !! j = Some b → precedes a b → i < j.

Fixpoint seq_ok (s : spec) (l : list event) : Prop :=
  match l with
  | [] => True
  | e :: r => (spec_step s (e_op e)).2 = e_res e ∧ seq_ok (spec_step s (e_op e)).1 r
  end.

Lemma seq_ok_spec_run s l : seq_ok s l ↔ (spec_run s (e_op <$> l)).2 = e_res <$> l.
Proof.
  revert s. induction l as [|e r IH]; intros s; [done|].
  rewrite !fmap_cons. cbn [seq_ok spec_run].
  destruct (spec_step s (e_op e)) as [s1 x] eqn:E; cbn [fst snd]. rewrite IH.
  destruct (spec_run s1 (e_op <$> r)) as [s2 xs]; cbn [fst snd]. split.
  - by intros [-> ->].
  - by intros [= -> ->].
Qed.

Lemma vres_eqb_eq a b : vres_eqb a b = true ↔ a = b.
Proof.
  destruct a, b; simpl; try (split; [done|congruence]);
    rewrite ?andb_true_iff, ?bool_decide_eq_true, ?Bool.eqb_true_iff, ?Nat.eqb_eq;
    naive_solver.
Qed.

Lemma minimal_spec e pending :
  minimal e pending = true ↔ Forall (λ f, ¬ precedes f e) pending.
Proof.
  unfold minimal, precedes. induction pending as [|f p IH]; simpl.
  { split; [constructor|done]. }
  rewrite andb_true_iff, Forall_cons, IH, negb_true_iff, N.ltb_ge. split; intros [? ?]; split; auto; lia.
Qed.

Lemma respects_rt_nil : respects_rt [].
Proof. intros i j a b Hi. by rewrite lookup_nil in Hi. Qed.

Lemma respects_rt_cons a r :
  respects_rt (a :: r) ↔ Forall (λ b, ¬ precedes b a) (a :: r) ∧ respects_rt r.
Proof.
  split.
  - intros H. split.
    + apply Forall_forall. intros b Hb Hp.
      apply elem_of_list_lookup in Hb as [j Hj].
      specialize (H j 0 b a Hj eq_refl Hp). lia.
    + intros i j x y Hi Hj Hp. specialize (H (S i) (S j) x y Hi Hj Hp). lia.
  - intros [Hall Hr] i j x y Hi Hj Hp. destruct j as [|j].
    + simpl in Hj. injection Hj as <-. exfalso.
      rewrite Forall_forall in Hall. apply (Hall x); [|done].
      by apply elem_of_list_lookup_2 in Hi.
    + destruct i as [|i]; [lia|]. simpl in *. specialize (Hr i j x y Hi Hj Hp). lia.
Qed.

Lemma respects_rt_decomp l :
  respects_rt l ↔
  (∀ a, a ∈ l → ¬ precedes a a) ∧
  (∀ l1 a l2 b l3, l = l1 ++ a :: l2 ++ b :: l3 → ¬ precedes b a).
Proof.
  split.
  - intros H. split.
    + intros a [i Hi]%elem_of_list_lookup Hp. specialize (H i i a a Hi Hi Hp). lia.
    + intros l1 a l2 b l3 -> Hp.
      assert ((l1 ++ a :: l2 ++ b :: l3) !! length (l1 ++ a :: l2) = Some b) as Hb.
      { rewrite app_comm_cons, app_assoc. by apply list_lookup_middle. }
      pose proof (H _ _ b a Hb (list_lookup_middle _ _ _ _ eq_refl) Hp) as Hlt.
      rewrite app_length in Hlt. lia.
  - intros [Hself Hdec] i j a b Hi Hj Hp.
    destruct (lt_eq_lt_dec i j) as [[?| ->]|Hlt]; [done|..].
    { rewrite Hi in Hj. injection Hj as <-. destruct (Hself a); [|done].
      by eapply elem_of_list_lookup_2. }
    (* j < i: split l at j, and what follows at i *)
    apply elem_of_list_split_length in Hj as (l1 & l' & -> & ->).
    rewrite lookup_app_r, lookup_cons_ne_0 in Hi by lia.
    apply elem_of_list_split_length in Hi as (l2 & l3 & -> & _).
    by destruct (Hdec l1 b l2 a l3).
Qed.

Lemma picks_sound {A} (l : list A) x rest : (x, rest) ∈ picks l → x :: rest ≡ₚ l.
Proof.
  revert x rest. induction l as [|y l IH]; intros x rest; simpl.
  { by intros ?%elem_of_nil. }
  rewrite elem_of_cons, elem_of_list_fmap. intros [[= -> ->]|([x' rest'] & [= -> ->] & Hin)]; [done|].
  simpl. rewrite Permutation_swap. f_equiv. by apply IH.
Qed.

Lemma picks_elem {A} (l : list A) x : x ∈ l → ∃ rest, (x, rest) ∈ picks l.
Proof.
  induction l as [|y l IH]; [by intros ?%elem_of_nil|].
  rewrite elem_of_cons. intros [->|Hin]; simpl.
  - eexists. by left.
  - destruct (IH Hin) as [rest Hr]. exists (y :: rest). right.
    apply elem_of_list_fmap. by exists (x, rest).
Qed.

Lemma picks_iff {A} (l : list A) x r :
  x :: r ≡ₚ l ↔ ∃ rest, (x, rest) ∈ picks l ∧ rest ≡ₚ r.
Proof.
  split; [|intros (rest & Hin & <-); by apply picks_sound].
  intros Hp. destruct (picks_elem l x) as [rest Hr]; [rewrite <-Hp; by left|].
  exists rest. split; [done|]. apply (inj (x ::.)). by rewrite (picks_sound _ _ _ Hr), Hp.
Qed.

Definition try_ok (f : nat) (s : spec) (pending : list event) (p : event * list event) : bool :=
  minimal p.1 pending &&
  vres_eqb (spec_step s (e_op p.1)).2 (e_res p.1) &&
  lin_search f (spec_step s (e_op p.1)).1 p.2.

Lemma lin_search_S f s x p :
  lin_search (S f) s (x :: p) = existsb (try_ok f s (x :: p)) (picks (x :: p)).
Proof.
  cbn -[picks minimal spec_step vres_eqb].
  generalize (picks (x :: p)). intros ps.
  induction ps as [|[e rest] ps IH]; [done|].
  cbn -[picks minimal spec_step vres_eqb]. rewrite <-IH. unfold try_ok; cbn [fst snd].
  destruct (minimal e (x :: p)); cbn [andb orb]; [|done].
  destruct (spec_step s (e_op e)) as [s' r]; cbn [fst snd].
  destruct (vres_eqb r (e_res e)); cbn [andb orb]; [|done].
  by destruct (lin_search f s' rest).
Qed.

Theorem lin_search_correct fuel : ∀ s pending,
  length pending ≤ fuel →
  lin_search fuel s pending = true ↔
  ∃ l, l ≡ₚ pending ∧ respects_rt l ∧ seq_ok s l.
Proof.
  induction fuel as [|f IH]; intros s [|x p] Hlen; [|simpl in Hlen; lia| |].
  1,2: split; [intros _; exists []; split_and!; [done|apply respects_rt_nil|done]|done].
  rewrite lin_search_S, existsb_exists. split.
  - intros ([e rest] & Hin%elem_of_list_In & Hok). unfold try_ok in Hok; cbn [fst snd] in Hok.
    apply andb_true_iff in Hok as [[Hmin Hres]%andb_true_iff Hrec].
    apply picks_sound in Hin.
    assert (length rest ≤ f) as Hlen'.
    { apply Permutation_length in Hin. simpl in *. lia. }
    apply (IH _ _ Hlen') in Hrec as (l & Hperm & Hrt & Hseq).
    exists (e :: l). split_and!.
    + by rewrite Hperm.
    + apply respects_rt_cons. split; [|done].
      apply minimal_spec in Hmin. by rewrite Hperm, Hin.
    + simpl. split; [by apply vres_eqb_eq|done].
  - intros (l & Hperm & Hrt & Hseq). destruct l as [|a r].
    { apply Permutation_nil_l in Hperm. done. }
    apply respects_rt_cons in Hrt as [Hmin Hrt]. simpl in Hseq. destruct Hseq as [Hres Hseq].
    pose proof Hperm as (rest & Hin & Hrest)%picks_iff.
    exists (a, rest). split; [by apply elem_of_list_In|].
    unfold try_ok; cbn [fst snd]. rewrite !andb_true_iff. split_and!.
    + apply minimal_spec. by rewrite <-Hperm.
    + by apply vres_eqb_eq.
    + apply IH.
      * apply Permutation_length in Hperm. apply Permutation_length in Hrest.
        simpl in *. lia.
      * exists r. by split_and!.
Qed.

Theorem linearizable_correct h :
  linearizable h = true ↔ ∃ l, l ≡ₚ h ∧ respects_rt l ∧ seq_ok ∅ l.
Proof. unfold linearizable. by apply lin_search_correct. Qed.

Corollary linearizable_correct' h :
  linearizable h = true ↔
  ∃ l, l ≡ₚ h ∧
       (∀ a, a ∈ l → ¬ precedes a a) ∧
       (∀ l1 a l2 b l3, l = l1 ++ a :: l2 ++ b :: l3 → ¬ precedes b a) ∧
       (spec_run ∅ (e_op <$> l)).2 = e_res <$> l.
Proof.
  rewrite linearizable_correct. split; intros (l & Hp & H).
  - exists l. split; [done|]. destruct H as [Hrt Hs].
    apply respects_rt_decomp in Hrt as [? ?]. by apply seq_ok_spec_run in Hs.
  - exists l. split; [done|]. destruct H as (H1 & H2 & Hs). split.
    + by apply respects_rt_decomp.
    + by apply seq_ok_spec_run.
Qed.

Local Open Scope N_scope.

(* Store 1 1 [0,3] overlaps Load 1 = None [1,2]; Load 1 = Some 1 [4,5] comes after both.
   Accepted; the witness order (Load None, Store, Load Some) differs from the list order. *)
Definition h_good : list event :=
  [ {| e_op := OStore 1 1; e_res := RNone;          e_inv := 0; e_ret := 3 |};
    {| e_op := OLoad 1;    e_res := ROpt None;      e_inv := 1; e_ret := 2 |};
    {| e_op := OLoad 1;    e_res := ROpt (Some 1);  e_inv := 4; e_ret := 5 |} ].

(* Store 1 1 returned (ticket 1) before Load 1 was invoked (ticket 2), yet Load saw nothing *)
Definition h_bad : list event :=
  [ {| e_op := OStore 1 1; e_res := RNone;     e_inv := 0; e_ret := 1 |};
    {| e_op := OLoad 1;    e_res := ROpt None; e_inv := 2; e_ret := 3 |} ].

(* a stale read after a fresh one, with an overlapping Store: also rejected *)
Definition h_bad3 : list event :=
  [ {| e_op := OStore 1 1; e_res := RNone;         e_inv := 0; e_ret := 4 |};
    {| e_op := OLoad 1;    e_res := ROpt (Some 1); e_inv := 1; e_ret := 2 |};
    {| e_op := OLoad 1;    e_res := ROpt None;     e_inv := 3; e_ret := 5 |} ].

Example h_good_accepted : linearizable h_good = true.
Proof. by vm_compute. Qed.
Example h_bad_rejected : linearizable h_bad = false.
Proof. by vm_compute. Qed.
Example h_bad3_rejected : linearizable h_bad3 = false.
Proof. by vm_compute. Qed.

Example h_good_linearization : ∃ l, l ≡ₚ h_good ∧ respects_rt l ∧ seq_ok ∅ l.
Proof. apply linearizable_correct, h_good_accepted. Qed.
Example h_bad_no_linearization : ¬ ∃ l, l ≡ₚ h_bad ∧ respects_rt l ∧ seq_ok ∅ l.
Proof. intros H%linearizable_correct. by rewrite h_bad_rejected in H. Qed.

Print Assumptions vres_eqb_eq.
Print Assumptions minimal_spec.
Print Assumptions picks_iff.
Print Assumptions lin_search_correct.
Print Assumptions linearizable_correct.
Print Assumptions linearizable_correct'.
Print Assumptions h_bad_no_linearization.

(* Each primitive on the shared state — a write to the cell of an entry, m.dirty[k] = e,
   dirtyLocked, amending read, missLocked, delete(m.dirty, k), add_new — preserves OInv, the
   invariant as seen by the stepping thread; with the facts about reachable entries and about
   the fields the primitives leave alone that the step proofs use. *)
From stdpp Require Import gmap.
From Coq Require Import NArith Lia.
From DS Require Import Model.ValueMap Model.ValueMapConc Proofs.ValueMapConcLin
  Proofs.ValueMapConcInv.

Local Open Scope N_scope.

Global Instance current_dec s k e : Decision (current s k e).
Proof. unfold current. apply _. Defined.

(* Rely with y_sn split by whether the entry is current *)
Lemma Rely_intro t s g s' g' :
  s_nexte s <= s_nexte s' ->
  (forall e, e < s_nexte s -> g_ek g' e = g_ek g e) ->
  (forall e t', g_own g e = Some t' -> t' <> t ->
     g_own g' e = Some t' /\ s_cell s' e = s_cell s e) ->
  (forall e, e < s_nexte s -> ever s e -> ever s' e) ->
  (forall k e, held s (g_ek g) k e -> current s k e ->
     current s' k e \/
     (kload (s_cell s' e) = abs_lookup s k /\ (abs_lookup s k = None \/ abs_lookup s' k = None))) ->
  (forall k e, held s (g_ek g) k e -> ~ current s k e ->
     s_cell s' e = s_cell s e \/ kload (s_cell s' e) = None) ->
  Rely t s g s' g'.
Proof.
  intros Hne Hek Hown Hev Hcur Hncur. split; try done.
  - intros e t' He Ht'. by apply (Hown e).
  - intros e t' He Ht'. by apply (Hown e t').
  - intros k e Hh. destruct (decide (current s k e)) as [Hc|Hc].
    + destruct (Hcur k e Hh Hc) as [?|?]; [by left|]. right. by left.
    + right. right. split; [done|]. by apply (Hncur k).
Qed.

Lemma lookup_spec_alter (m : spec) f k k' :
  partial_alter f k m !! k' = if decide (k' = k) then f (m !! k) else m !! k'.
Proof.
  destruct (decide (k' = k)) as [->|]; [apply lookup_partial_alter|by apply lookup_partial_alter_ne].
Qed.

Lemma current_held s ek own k e : WF s ek own -> current s k e -> held s ek k e.
Proof.
  intros Hwf [Hr|(Hr & Ham & Hd)]; [by eapply w_rd|].
  unfold dget in Hd. destruct (s_dirty s) as [d|] eqn:Hds; [|done].
  by destruct (w_d _ _ _ Hwf d k e Hds Hd).
Qed.

Lemma abs_lookup_current s ek own k e :
  WF s ek own -> current s k e -> abs_lookup s k = kload (s_cell s e).
Proof.
  intros Hwf [Hr|(Hr & Ham & Hd)]; unfold abs_lookup; rewrite Hr; [done|]. by rewrite Ham, Hd.
Qed.

Lemma abs_lookup_cells s s' k :
  s_rd s' = s_rd s -> s_am s' = s_am s -> s_dirty s' = s_dirty s ->
  (forall e, current s k e -> kload (s_cell s' e) = kload (s_cell s e)) ->
  abs_lookup s' k = abs_lookup s k.
Proof.
  intros Hrd Ham Hdi Hc. unfold current, abs_lookup, dget in *. rewrite Hrd, Ham, Hdi.
  destruct (s_rd s !! k) as [e|]; [apply Hc; by left|].
  destruct (s_am s); [|done]. destruct (s_dirty s) as [d|]; [|done].
  destruct (d !! k) as [e|] eqn:Hd; [|done]. apply Hc. by right.
Qed.

Lemma dget_current s ek own k e :
  WF s ek own -> s_rd s !! k = None -> dget s k = Some e ->
  current s k e /\ s_cell s e <> KExp.
Proof.
  intros Hwf Hr Hd. unfold dget in Hd. destruct (s_dirty s) as [d|] eqn:Hdd; [|done].
  destruct (w_d _ _ _ Hwf d k e Hdd Hd) as [_ Hne]. split; [|done]. right.
  split; [done|]. split; [|unfold dget; by rewrite Hdd].
  destruct (s_am s) eqn:Ham; [done|].
  rewrite (w_clean _ _ _ Hwf d k e Ham Hdd Hd) in Hr. done.
Qed.

Lemma ever_rd s ek own k e :
  WF s ek own -> held s ek k e -> ever s e -> s_cell s e <> KExp -> s_rd s !! k = Some e.
Proof.
  intros Hwf [Hk _] [(k' & Hr)|Hc] Hne; [|done].
  destruct (w_rd _ _ _ Hwf _ _ Hr) as [Hk' _]. congruence.
Qed.

Lemma WF_ext s s' ek own :
  s_rd s' = s_rd s -> s_am s' = s_am s -> s_dirty s' = s_dirty s -> s_nexte s' = s_nexte s ->
  (forall x, s_cell s' x = KExp <-> s_cell s x = KExp) ->
  WF s ek own -> WF s' ek own.
Proof.
  intros Hrd Ham Hdi Hne Hexp [].
  split; unfold held, ever, inrd, indirty in *; rewrite ?Hrd, ?Ham, ?Hdi, ?Hne; try done.
  - intros d k e Hd Hl. rewrite Hexp. eauto.
  - intros d k e Hd Hl. rewrite Hexp. eauto.
  - intros k e Hl. rewrite Hexp. eauto.
  - intros e t Hown. rewrite Hexp. eauto.
Qed.

(* only misses, the tag allocator or the mutex change *)
Definition same_core (s s' : shared) : Prop :=
  s_rd s' = s_rd s /\ s_am s' = s_am s /\ s_dirty s' = s_dirty s /\
  s_cell s' = s_cell s /\ s_nexte s' = s_nexte s.

Lemma OInv_same_core t s thr g s' g' a :
  OInv t s thr g -> same_core s s' ->
  g_l g' = lg_step (g_l g) t a -> g_ek g' = g_ek g -> g_own g' = g_own g ->
  g_abs (g_l g') = g_abs (g_l g) ->
  (forall t', t' <> t -> s_lock s' = Some t' <-> s_lock s = Some t') ->
  OInv t s' thr g'.
Proof.
  intros Ho (H1 & H2 & H3 & H4 & H5) Hl Hek Hown Habs Hlk.
  eapply OInv_step; eauto.
  - rewrite Hek, Hown. apply (WF_ext s); try done; [by rewrite H4|apply (o_wf _ _ _ _ Ho)].
  - intros k. rewrite Habs, (o_abs _ _ _ _ Ho). symmetry. apply abs_lookup_cells; try done.
    intros e _. by rewrite H4.
  - apply Rely_intro.
    + rewrite H5. lia.
    + intros. by rewrite Hek.
    + intros. by rewrite Hown, H4.
    + intros e _. unfold ever, inrd. by rewrite H1, H4.
    + intros k e _ Hcur. left. unfold current, dget in *. by rewrite H1, H2, H3.
    + intros k e _ _. left. by rewrite H4.
Qed.

(* a compare-and-swap or store on the cell of the current entry of k *)
Section write.
  Context (t : nat) (s s' : shared) (thr : gmap nat tstate) (g : ghost)
          (k : key) (e : eid) (c' : ccell).
  Hypothesis Ho : OInv t s thr g.
  Hypothesis Hrd : s_rd s' = s_rd s.
  Hypothesis Ham : s_am s' = s_am s.
  Hypothesis Hdi : s_dirty s' = s_dirty s.
  Hypothesis Hne : s_nexte s' = s_nexte s.
  Hypothesis Hce : forall x, s_cell s' x = if N.eqb x e then c' else s_cell s x.
  Hypothesis Hcur : current s k e.
  Hypothesis Hnexp : s_cell s e <> KExp.
  Hypothesis Hc' : c' <> KExp.

  Let Hwf := o_wf _ _ _ _ Ho.

  Lemma write_cell_other x : x <> e -> s_cell s' x = s_cell s x.
  Proof. intros Hx. rewrite Hce. by destruct (N.eqb_spec x e). Qed.
  Lemma write_cell_self : s_cell s' e = c'.
  Proof. rewrite Hce. by rewrite N.eqb_refl. Qed.

  Lemma write_nexp x : s_cell s' x = KExp <-> s_cell s x = KExp.
  Proof.
    destruct (decide (x = e)) as [->|Hx]; [rewrite write_cell_self; by split|].
    by rewrite write_cell_other.
  Qed.

  Lemma write_ever x : ever s' x <-> ever s x.
  Proof. unfold ever, inrd. by rewrite Hrd, write_nexp. Qed.

  Lemma write_WF : WF s' (g_ek g) (g_own g).
  Proof. apply (WF_ext s); try done. apply write_nexp. Qed.

  Lemma write_current k0 x : current s' k0 x <-> current s k0 x.
  Proof. unfold current, dget. by rewrite Hrd, Ham, Hdi. Qed.

  Lemma write_abs k' :
    abs_lookup s' k' = if decide (k' = k) then kload c' else abs_lookup s k'.
  Proof.
    destruct (decide (k' = k)) as [->|Hk].
    - rewrite (abs_lookup_current s' _ _ k e write_WF), write_cell_self; [done|].
      by apply write_current.
    - apply abs_lookup_cells; try done. intros x Hx. rewrite write_cell_other; [done|].
      intros ->. apply Hk.
      destruct (current_held _ _ _ _ _ Hwf Hx), (current_held _ _ _ _ _ Hwf Hcur). congruence.
  Qed.
  Lemma OInv_write g' a :
    s_lock s' = s_lock s ->
    g_l g' = lg_step (g_l g) t a -> g_ek g' = g_ek g -> g_own g' = g_own g ->
    g_abs (g_l g') = partial_alter (fun _ => kload c') k (g_abs (g_l g)) ->
    OInv t s' thr g'.
  Proof.
    intros Hlk Hl Hek Hown Habs. eapply OInv_step; eauto.
    - rewrite Hek, Hown. apply write_WF.
    - intros k'. rewrite Habs, lookup_spec_alter, write_abs.
      destruct (decide (k' = k)); [done|]. apply (o_abs _ _ _ _ Ho).
    - apply Rely_intro.
      + rewrite Hne. lia.
      + intros. by rewrite Hek.
      + intros x t' Hx _. rewrite Hown. split; [done|]. apply write_cell_other.
        intros ->. destruct (w_own _ _ _ Hwf _ _ Hx) as (Hnev & Hnd & _).
        destruct Hcur as [Hr|(_ & _ & Hd)].
        * apply Hnev. left. by exists k.
        * apply Hnd. unfold dget in Hd. destruct (s_dirty s) as [d|] eqn:Hds; [|done]. by exists d, k.
      + intros x _. by rewrite write_ever.
      + intros k1 e1 _ Hc1. left. by apply write_current.
      + intros k1 e1 [Hk1 _] Hc1. left. apply write_cell_other. intros ->.
        destruct (current_held _ _ _ _ _ Hwf Hcur) as [Hk _]. congruence.
    - intros t' _. by rewrite Hlk.
  Qed.
End write.

(* the owner of an orphaned entry clears it; of the section above it uses write_WF and write_ever,
   which ask for the field equations and non-expunged cell contents, not for e being current *)
Lemma OInv_write_owned t s thr g g' a e :
  OInv t s thr g -> g_own g e = Some t ->
  g_l g' = lg_step (g_l g) t a -> g_ek g' = g_ek g -> g_own g' = g_own g ->
  g_abs (g_l g') = g_abs (g_l g) ->
  OInv t (set_cell s e KNil) thr g'.
Proof.
  intros Ho Hoe Hl Hek Hown Habs.
  pose proof (o_wf _ _ _ _ Ho) as Hwf.
  destruct (w_own _ _ _ Hwf _ _ Hoe) as (Hnev & Hnd & Hlt).
  assert (forall k, ~ current s k e) as Hnc.
  { intros k [Hr|(_ & _ & Hd)]; [apply Hnev; left; by exists k|].
    unfold dget in Hd. destruct (s_dirty s) as [d|] eqn:Hds; [|done]. apply Hnd. by exists d, k. }
  assert (s_cell s e <> KExp) as Hne by (intros He; apply Hnev; by right).
  set (s' := set_cell s e KNil).
  assert (forall x, s_cell s' x = if N.eqb x e then KNil else s_cell s x) as Hce by done.
  eapply OInv_step; eauto.
  - rewrite Hek, Hown. by eapply write_WF with (s := s) (e := e) (c' := KNil).
  - intros k. rewrite Habs, (o_abs _ _ _ _ Ho). symmetry. apply abs_lookup_cells; try done.
    intros x Hx. rewrite Hce. destruct (N.eqb_spec x e) as [->|]; [by destruct (Hnc k)|done].
  - apply Rely_intro.
    + simpl. lia.
    + intros. by rewrite Hek.
    + intros x t' Hx Hne'. rewrite Hown, Hce. split; [done|].
      destruct (N.eqb_spec x e) as [->|]; [congruence|done].
    + intros x _. by apply write_ever with (e := e) (c' := KNil).
    + intros k1 e1 _ Hc1. by left.
    + intros k1 e1 _ _. rewrite Hce. destruct (N.eqb_spec e1 e); [by right|by left].
Qed.

(* m.dirty[k] = e for an entry that is not in the dirty map — the expunged entry of k in the
   read map, revived (unexpungeLocked), or a newly allocated one — whose cell becomes c' *)
Lemma OInv_dput t s s' thr g g' a d k e c' :
  OInv t s thr g -> s_dirty s = Some d ->
  (s_rd s !! k = Some e /\ s_cell s e = KExp) \/
  (e = s_nexte s /\ s_am s = true /\ s_rd s !! k = None /\ d !! k = None) ->
  s_rd s' = s_rd s -> s_am s' = s_am s -> s_dirty s' = Some (<[k := e]> d) ->
  s_lock s' = s_lock s -> s_nexte s <= s_nexte s' -> e < s_nexte s' ->
  (forall x, s_cell s' x = if N.eqb x e then c' else s_cell s x) -> c' <> KExp ->
  g_l g' = lg_step (g_l g) t a ->
  (forall x, g_ek g' x = if N.eqb x e then k else g_ek g x) -> g_own g' = g_own g ->
  g_abs (g_l g') = partial_alter (fun _ => kload c') k (g_abs (g_l g)) ->
  OInv t s' thr g'.
Proof.
  intros Ho Hd Hcase Hrd Ham Hdi Hlk Hne Hlt Hce Hc' Hl Hek Hown Habs.
  pose proof (o_wf _ _ _ _ Ho) as Hwf.
  assert (forall x, x <> e -> s_cell s' x = s_cell s x) as Hoth.
  { intros x Hx. rewrite Hce. by destruct (N.eqb_spec x e). }
  assert (s_cell s' e = c') as Hself by (by rewrite Hce, N.eqb_refl).
  assert (forall k2 x, d !! k2 = Some x -> x <> e) as Hdne.
  { intros k2 x Hx ->. destruct (w_d _ _ _ Hwf d k2 e Hd Hx) as [[_ ?] ?].
    destruct Hcase as [[_ ?]|[-> _]]; [done|lia]. }
  assert (forall k2 x, s_rd s !! k2 = Some x -> x = e <-> k2 = k) as Hrk.
  { intros k2 x Hx. destruct (w_rd _ _ _ Hwf _ _ Hx) as [Hk2 Hlt2].
    destruct Hcase as [[Hr _]|(-> & _ & Hr & _)].
    - destruct (w_rd _ _ _ Hwf _ _ Hr) as [Hk _]. split; intros ->; congruence.
    - split; [lia|congruence]. }
  assert (d !! k = None) as Hdk.
  { destruct Hcase as [[Hr Hc]|(_ & _ & _ & ?)]; [|done].
    destruct (w_exp _ _ _ Hwf _ _ Hr Hc) as (d1 & Hd1 & ?). congruence. }
  assert (s_am s = false -> s_rd s !! k = Some e) as Hclean.
  { destruct Hcase as [[? _]|(_ & ? & _)]; [done|congruence]. }
  assert (forall t0, g_own g e <> Some t0) as Howne.
  { intros t0 Hx. destruct (w_own _ _ _ Hwf _ _ Hx) as (Hnev & _ & ?).
    destruct Hcase as [[_ ?]|[-> _]]; [|lia]. apply Hnev. by right. }
  assert (forall k1, held s (g_ek g) k1 e -> current s k1 e) as Hheld.
  { intros k1 [Hk1 ?]. destruct Hcase as [[Hr _]|[-> _]]; [|lia].
    destruct (w_rd _ _ _ Hwf _ _ Hr) as [Hk _]. left. congruence. }
  assert (forall x, x < s_nexte s -> g_ek g' x = g_ek g x) as Hekold.
  { intros x Hx. rewrite Hek. destruct (N.eqb_spec x e) as [->|]; [|done].
    destruct Hcase as [[Hr _]|[-> _]]; [|lia]. symmetry. by destruct (w_rd _ _ _ Hwf _ _ Hr). }
  eapply OInv_step; eauto.
  - rewrite Hown. split; unfold held, indirty; rewrite ?Hrd, ?Ham, ?Hdi.
    + eauto.
    + intros k0 x Hx. destruct (w_rd _ _ _ Hwf _ _ Hx). rewrite Hekold by done. split; [done|lia].
    + intros d0 k0 x [= <-] Hx. destruct (decide (k0 = k)) as [->|Hk0].
      * rewrite lookup_insert in Hx. injection Hx as <-. by rewrite Hek, N.eqb_refl, Hself.
      * rewrite lookup_insert_ne in Hx by done. destruct (w_d _ _ _ Hwf d k0 x Hd Hx) as [[? ?] ?].
        pose proof (Hdne _ _ Hx). rewrite Hoth, Hekold by done. split; [split; [done|lia]|done].
    + intros d0 k0 x [= <-] Hx Hc. destruct (decide (k0 = k)) as [->|Hk0].
      * rewrite lookup_insert. f_equal. symmetry. by apply (Hrk k x).
      * rewrite lookup_insert_ne by done. rewrite Hoth in Hc; [by eapply w_rd_d|].
        by rewrite (Hrk _ _ Hx).
    + intros k0 x Hx Hc. assert (x <> e) as Hxe by (intros ->; by rewrite Hself in Hc).
      rewrite Hoth in Hc by done. destruct (w_exp _ _ _ Hwf _ _ Hx Hc) as (d1 & Hd1 & Hk1).
      rewrite Hd in Hd1. injection Hd1 as <-. eexists. split; [done|].
      rewrite lookup_insert_ne; [done|]. intros <-. by apply Hxe, (Hrk k x).
    + intros d0 k0 x Ham' [= <-] Hx. destruct (decide (k0 = k)) as [->|Hk0].
      * rewrite lookup_insert in Hx. injection Hx as <-. by apply Hclean.
      * rewrite lookup_insert_ne in Hx by done. by eapply w_clean.
    + intros x t0 Hx. destruct (w_own _ _ _ Hwf _ _ Hx) as (Hnev & Hnd & Hlt0).
      assert (x <> e) by (intros ->; by eapply Howne). split; [|split; [|lia]].
      * unfold ever, inrd. by rewrite Hrd, Hoth.
      * intros (d0 & k0 & [= <-] & Hx0). destruct (decide (k0 = k)) as [->|].
        -- rewrite lookup_insert in Hx0. congruence.
        -- rewrite lookup_insert_ne in Hx0 by done. apply Hnd. by exists d, k0.
  - intros k0. rewrite Habs, lookup_spec_alter. unfold abs_lookup, dget. rewrite Hrd, Ham, Hdi.
    destruct (decide (k0 = k)) as [->|Hk0].
    + rewrite lookup_insert. destruct (s_rd s !! k) as [x|] eqn:Hr.
      * assert (x = e) as -> by (by apply (Hrk k)). by rewrite Hself.
      * destruct (s_am s); [by rewrite Hself|by specialize (Hclean eq_refl)].
    + rewrite lookup_insert_ne, (o_abs _ _ _ _ Ho) by done.
      unfold abs_lookup, dget. rewrite Hd. destruct (s_rd s !! k0) as [x|] eqn:Hr.
      * rewrite Hoth; [done|]. by rewrite (Hrk _ _ Hr).
      * destruct (s_am s); [|done]. destruct (d !! k0) as [x|] eqn:Hx; [|done].
        rewrite Hoth; [done|by eapply Hdne].
  - apply Rely_intro; try done.
    + intros x t' Hx _. rewrite Hown. split; [done|]. apply Hoth. intros ->. by eapply Howne.
    + intros x Hx [Hin|Hc]; [left; unfold inrd; by rewrite Hrd|].
      destruct (decide (x = e)) as [->|Hxe]; [|right; by rewrite Hoth].
      left. unfold inrd. rewrite Hrd. destruct Hcase as [[Hr _]|[-> _]]; [by exists k|lia].
    + intros k1 e1 _ [H1|(H1 & H2 & H3)]; left; [left; by rewrite Hrd|]. right.
      unfold dget in *. rewrite Hrd, Ham, Hdi. rewrite Hd in H3.
      rewrite lookup_insert_ne; [done|]. intros <-. congruence.
    + intros k1 e1 Hh Hnc. left. apply Hoth. intros ->. by apply Hnc, Hheld.
  - intros t' _. by rewrite Hlk.
Qed.

(* e.unexpungeLocked() and, if e was expunged, m.dirty[k] = e, for the entry read holds at k;
   the abstract map is unchanged: an expunged entry and a nil one both mean absent *)
Lemma OInv_unexpunge t s thr g k e :
  OInv t s thr g -> s_rd s !! k = Some e -> OInv t (unexpunge s k e) thr g.
Proof.
  intros Ho Hr. pose proof (o_wf _ _ _ _ Ho) as Hwf. unfold unexpunge.
  destruct (s_cell s e) eqn:Hc; try done.
  destruct (w_exp _ _ _ Hwf _ _ Hr Hc) as (d & Hd & _).
  destruct (w_rd _ _ _ Hwf _ _ Hr) as [Hk Hlt]. unfold dput. simpl. rewrite Hd.
  eapply (OInv_dput t s _ thr g g ATau d k e KNil); try done; [by left|..].
  - intros x. by destruct (N.eqb_spec x e) as [->|].
  - change (g_abs (g_l g) = delete k (g_abs (g_l g))). symmetry. apply delete_notin.
    rewrite (o_abs _ _ _ _ Ho). unfold abs_lookup. by rewrite Hr, Hc.
Qed.

Lemma unexpunge_fields s k e :
  s_rd (unexpunge s k e) = s_rd s /\ s_am (unexpunge s k e) = s_am s /\
  s_nexte (unexpunge s k e) = s_nexte s /\ s_lock (unexpunge s k e) = s_lock s /\
  s_cell (unexpunge s k e) e <> KExp.
Proof.
  unfold unexpunge. destruct (s_cell s e) eqn:Hc; try (by rewrite Hc).
  unfold dput. simpl. destruct (s_dirty s); simpl; by rewrite N.eqb_refl.
Qed.

(* m.dirty[k] = newEntry(v) for a key in neither map, read already amended *)
Definition alloc (s : shared) (k : key) (v : val) : shared :=
  let e := s_nexte s in
  let s := put_val s e v in
  dput {| s_rd := s_rd s; s_am := s_am s; s_dirty := s_dirty s; s_misses := s_misses s;
          s_cell := s_cell s; s_nexte := (e + 1)%N; s_nextp := s_nextp s; s_lock := s_lock s |} k e.
Lemma add_new_eq s k v :
  add_new s k v = alloc (if s_am s then s else set_am (dirty_locked s) true) k v.
Proof. done. Qed.

Lemma OInv_alloc t s thr g g' a k v :
  OInv t s thr g -> s_am s = true -> s_rd s !! k = None -> dget s k = None ->
  g_l g' = lg_step (g_l g) t a ->
  g_ek g' = (fun x => if N.eqb x (s_nexte s) then k else g_ek g x) -> g_own g' = g_own g ->
  g_abs (g_l g') = <[k := v]> (g_abs (g_l g)) ->
  OInv t (alloc s k v) thr g'.
Proof.
  intros Ho Ham Hr Hdk Hl Hek Hown Habs.
  destruct (w_am _ _ _ (o_wf _ _ _ _ Ho) Ham) as [d Hd].
  unfold dget in Hdk. rewrite Hd in Hdk. unfold alloc, dput. simpl. rewrite Hd.
  eapply (OInv_dput t s _ thr g g' a d k (s_nexte s) (KVal (s_nextp s) v));
    try done; simpl; [by right|lia|lia|]. by rewrite Hek.
Qed.

Lemma in_rng_spec (m : gmap key eid) e : in_rng m e = true <-> exists k, m !! k = Some e.
Proof.
  unfold in_rng. rewrite existsb_exists. split.
  - intros ([k x] & Hin & Heq). apply elem_of_list_In, elem_of_map_to_list in Hin.
    simpl in Heq. apply N.eqb_eq in Heq. subst. by exists k.
  - intros (k & Hk). exists (k, e). split; [|simpl; apply N.eqb_refl].
    by apply elem_of_list_In, elem_of_map_to_list.
Qed.

Lemma OInv_dirty_locked t s thr g :
  OInv t s thr g -> s_am s = false -> OInv t (dirty_locked s) thr g.
Proof.
  intros Ho Ham. pose proof (o_wf _ _ _ _ Ho) as Hwf.
  unfold dirty_locked. destruct (s_dirty s) as [d|] eqn:Hd; [done|].
  set (s' := {| s_rd := s_rd s |}).
  assert (forall x, s_cell s' x = KExp <-> s_cell s x = KExp \/ (s_cell s x = KNil /\ inrd s x)) as Hexp.
  { intros x. simpl. unfold inrd. rewrite <-in_rng_spec.
    destruct (s_cell s x); [destruct (in_rng (s_rd s) x)|..]; naive_solver. }
  assert (forall x, kload (s_cell s' x) = kload (s_cell s x)) as Hkl.
  { intros x. simpl. destruct (s_cell s x); [destruct (in_rng (s_rd s) x)|..]; done. }
  assert (forall x, ~ inrd s x -> s_cell s' x = s_cell s x) as Hnin.
  { intros x Hx. simpl. destruct (s_cell s x); try done.
    destruct (in_rng (s_rd s) x) eqn:Hin; [|done]. apply in_rng_spec in Hin. done. }
  assert (forall x, ever s' x <-> ever s x) as Hev.
  { intros x. unfold ever. rewrite Hexp. unfold inrd. simpl. naive_solver. }
  eapply (OInv_step t s thr g s' g ATau); eauto.
  - destruct Hwf. split; unfold held, indirty in *; simpl; try done.
    + intros d0 k0 e0 [= <-] Hl0. apply map_filter_lookup_Some in Hl0 as [Hl0 Hv]. simpl in Hv.
      split; [eauto|]. by destruct (s_cell s e0).
    + intros d0 k0 e0 [= <-] Hl0 Hc0. apply map_filter_lookup_Some. split; [done|]. simpl.
      destruct (s_cell s e0) eqn:Hce; try done.
      destruct (in_rng (s_rd s) e0) eqn:Hin; [done|].
      assert (in_rng (s_rd s) e0 = true) by (apply in_rng_spec; eauto). congruence.
    + intros k0 e0 Hl0 Hc0. eexists. split; [done|]. apply map_filter_lookup_None. right.
      intros x Hx. simpl. rewrite Hl0 in Hx. inversion Hx; subst x.
      destruct (s_cell s e0); [done|done|]. by destruct (in_rng (s_rd s) e0).
    + intros d0 k0 e0 _ [= <-] Hl0. by apply map_filter_lookup_Some in Hl0 as [Hl0 _].
    + intros e0 t0 Hown0. destruct (w_own _ _ Hown0) as (Hnev & Hnd & Hlt0).
      split; [|split; [|done]].
      * fold (ever s' e0). by rewrite Hev.
      * intros (d0 & k0 & [= <-] & Hl0). apply map_filter_lookup_Some in Hl0 as [Hl0 _].
        apply Hnev. left. by exists k0.
  - intros k0. rewrite (o_abs _ _ _ _ Ho). unfold abs_lookup. simpl. rewrite Ham.
    destruct (s_rd s !! k0) as [x|]; [|done]. symmetry. apply Hkl.
  - apply Rely_intro; simpl; try done.
    + intros x t' Hx _. split; [done|]. apply Hnin. intros Hin.
      destruct (w_own _ _ _ Hwf _ _ Hx) as (Hnev & _). apply Hnev. by left.
    + intros x _. by rewrite <-Hev.
    + intros k1 e1 _ [H1|(H1 & H2 & H3)]; [left; by left|congruence].
    + intros k1 e1 _ _. destruct (s_cell s e1); [|by left..].
      destruct (in_rng (s_rd s) e1); [by right|by left].
Qed.

(* m.read.Store(readOnly{m: read.m, amended: true}) once the dirty map exists *)
Lemma OInv_set_am t s thr g :
  OInv t s thr g -> s_am s = false -> is_Some (s_dirty s) -> OInv t (set_am s true) thr g.
Proof.
  intros Ho Ham [d Hd]. pose proof (o_wf _ _ _ _ Ho) as Hwf.
  assert (forall k, s_rd s !! k = None -> d !! k = None) as Hsub.
  { intros k Hk. destruct (d !! k) as [x|] eqn:Hx; [|done].
    rewrite (w_clean _ _ _ Hwf d k x Ham Hd Hx) in Hk. done. }
  eapply (OInv_step t s thr g (set_am s true) g ATau); eauto.
  - destruct Hwf. split; unfold held, indirty, ever, inrd in *; simpl; try done.
  - intros k0. rewrite (o_abs _ _ _ _ Ho). unfold abs_lookup, dget. simpl. rewrite Ham, Hd.
    destruct (s_rd s !! k0) as [x|] eqn:Hr; [done|]. by rewrite (Hsub _ Hr).
  - apply Rely_intro; simpl; try done; [|by left].
    intros k1 e1 _ [H1|(H1 & H2 & H3)]; [left; by left|congruence].
Qed.

Lemma dirty_locked_fields s :
  s_rd (dirty_locked s) = s_rd s /\ s_am (dirty_locked s) = s_am s /\
  s_nexte (dirty_locked s) = s_nexte s /\ s_lock (dirty_locked s) = s_lock s /\
  is_Some (s_dirty (dirty_locked s)) /\
  (forall k, s_rd s !! k = None -> dget s k = None -> dget (dirty_locked s) k = None).
Proof.
  unfold dirty_locked. destruct (s_dirty s) eqn:Hd; simpl.
  - rewrite Hd. repeat split; eauto.
  - repeat split; eauto. intros k Hr _. unfold dget. simpl.
    apply map_filter_lookup_None. by left.
Qed.

(* the final `else` of Store / LoadOrStore: make sure the dirty map exists and read is amended,
   then m.dirty[k] = newEntry(v) *)
Lemma OInv_add_new t s thr g g' a k v :
  OInv t s thr g -> s_rd s !! k = None -> dget s k = None ->
  g_l g' = lg_step (g_l g) t a ->
  g_ek g' = (fun x => if N.eqb x (s_nexte s) then k else g_ek g x) -> g_own g' = g_own g ->
  g_abs (g_l g') = <[k := v]> (g_abs (g_l g)) ->
  OInv t (add_new s k v) thr g'.
Proof.
  intros Ho Hr Hd Hl Hek Hown Habs. rewrite add_new_eq.
  set (s0 := if s_am s then s else set_am (dirty_locked s) true).
  assert (OInv t s0 thr g /\ s_am s0 = true /\ s_rd s0 !! k = None /\ dget s0 k = None /\
          s_nexte s0 = s_nexte s) as (Ho0 & A1 & A2 & A3 & A4).
  { unfold s0. destruct (s_am s) eqn:Ham; [done|].
    destruct (dirty_locked_fields s) as (H1 & H2 & H3 & H4 & H5 & H6).
    split; [|unfold dget in *; simpl; rewrite H1, H3; repeat split; try done; by apply H6].
    apply OInv_set_am; try done; [|congruence]. by apply OInv_dirty_locked. }
  eapply OInv_alloc; eauto. by rewrite A4.
Qed.

Lemma add_new_lock s k v : s_lock (add_new s k v) = s_lock s.
Proof.
  rewrite add_new_eq. unfold alloc, dput. simpl. destruct (s_am s); simpl.
  - by destruct (s_dirty s).
  - destruct (dirty_locked_fields s) as (_ & _ & _ & H4 & [d Hd] & _). by rewrite Hd.
Qed.

(* missLocked (only reached with read.amended) *)
Lemma OInv_promote t s thr g :
  OInv t s thr g -> s_am s = true -> OInv t (promote s) thr g.
Proof.
  intros Ho Ham. pose proof (o_wf _ _ _ _ Ho) as Hwf.
  destruct (w_am _ _ _ Hwf Ham) as [d Hd].
  assert (forall x, ever (promote s) x -> ever s x \/ indirty s x) as Hev.
  { intros x [(k0 & Hx)|Hx]; [|left; by right]. simpl in Hx. rewrite Hd in Hx. right. by exists d, k0. }
  (* a key of the read map is looked up in the dirty map with the same result *)
  assert (forall k0 x, s_rd s !! k0 = Some x ->
            if decide (s_cell s x = KExp) then d !! k0 = None else d !! k0 = Some x) as Hrd.
  { intros k0 x Hr. destruct (decide (s_cell s x = KExp)) as [Hc|Hc]; [|by eapply w_rd_d].
    destruct (w_exp _ _ _ Hwf _ _ Hr Hc) as (d1 & Hd1 & Hk1). congruence. }
  eapply (OInv_step t s thr g (promote s) g ATau); eauto.
  - split; unfold held, indirty; simpl; rewrite ?Hd; simpl; try done.
    + intros k0 x Hx. by destruct (w_d _ _ _ Hwf d k0 x Hd Hx).
    + intros k0 x Hx Hc. by destruct (w_d _ _ _ Hwf d k0 x Hd Hx).
    + intros x t0 Hown0. destruct (w_own _ _ _ Hwf _ _ Hown0) as (Hnev & Hnd & Hlt0).
      split; [|split; [|done]].
      * intros Hx. destruct (Hev _ Hx); done.
      * by intros (d0 & k0 & ? & _).
  - intros k0. rewrite (o_abs _ _ _ _ Ho). unfold abs_lookup, dget. simpl. rewrite Ham, Hd. simpl.
    destruct (s_rd s !! k0) as [x|] eqn:Hr; [|by destruct (d !! k0)].
    specialize (Hrd _ _ Hr). destruct (decide (s_cell s x = KExp)) as [Hc|Hc]; rewrite Hrd; [|done].
    by rewrite Hc.
  - apply Rely_intro; simpl; try done.
    + intros x _ [(k0 & Hx)|Hx]; [|by right]. specialize (Hrd _ _ Hx).
      destruct (decide (s_cell s x = KExp)) as [Hc|Hc]; [by right|]. left.
      exists k0. simpl. by rewrite Hd.
    + intros k1 e1 _ [H1|(H1 & H2 & H3)].
      * specialize (Hrd _ _ H1). destruct (decide (s_cell s e1 = KExp)) as [Hc|Hc].
        -- right. unfold abs_lookup. rewrite H1, Hc. split; [done|by left].
        -- left. left. simpl. by rewrite Hd.
      * left. left. simpl. unfold dget in H3. rewrite Hd in H3. by rewrite Hd.
    + by left.
Qed.

Lemma OInv_miss_locked t s thr g :
  OInv t s thr g -> s_am s = true -> OInv t (miss_locked s) thr g.
Proof.
  intros Ho Ham. unfold miss_locked.
  destruct (Nat.ltb _ _); [|by apply OInv_promote].
  eapply (OInv_same_core t s thr g _ g ATau); eauto. by repeat split.
Qed.

Lemma miss_locked_fields s :
  s_nexte (miss_locked s) = s_nexte s /\ s_lock (miss_locked s) = s_lock s /\
  s_cell (miss_locked s) = s_cell s.
Proof. unfold miss_locked. by destruct (Nat.ltb _ _). Qed.

Lemma miss_locked_current s ek own k e :
  WF s ek own -> s_am s = true -> current s k e -> s_cell s e <> KExp ->
  current (miss_locked s) k e.
Proof.
  intros Hwf Ham Hc Hne. unfold miss_locked. destruct (Nat.ltb _ _); [done|].
  destruct (w_am _ _ _ Hwf Ham) as [d Hd]. left. simpl. rewrite Hd. simpl.
  destruct Hc as [Hr|(Hr & _ & Hdk)].
  - by eapply w_rd_d.
  - unfold dget in Hdk. by rewrite Hd in Hdk.
Qed.

(* delete(m.dirty, k) in LoadAndDelete's locked region; the removed entry, if any,
   becomes an orphan owned by the deleting thread *)
Definition own_upd (own : eid -> option nat) (oe : option eid) (t : nat) : eid -> option nat :=
  match oe with
  | Some e => fun x => if N.eqb x e then Some t else own x
  | None => own
  end.

Lemma OInv_dirty_delete t s thr g g' a k :
  OInv t s thr g -> s_am s = true -> s_rd s !! k = None ->
  g_l g' = lg_step (g_l g) t a -> g_ek g' = g_ek g ->
  g_own g' = own_upd (g_own g) (dget s k) t ->
  g_abs (g_l g') = partial_alter (fun _ => None) k (g_abs (g_l g)) ->
  OInv t (set_dirty s (delete k <$> s_dirty s)) thr g'.
Proof.
  intros Ho Ham Hr Hl Hek Hown Habs. pose proof (o_wf _ _ _ _ Ho) as Hwf.
  destruct (w_am _ _ _ Hwf Ham) as [d Hd]. unfold dget in Hown. rewrite Hd in *. simpl.
  assert (forall x t0, g_own g' x = Some t0 ->
            g_own g x = Some t0 \/ (d !! k = Some x /\ t0 = t)) as Hown_inv.
  { intros x t0. rewrite Hown. unfold own_upd. destruct (d !! k) as [e|]; [|by left].
    destruct (N.eqb_spec x e) as [->|]; [|by left]. intros [= <-]. by right. }
  assert (forall x t0, g_own g x = Some t0 -> g_own g' x = Some t0) as Hown_keep.
  { intros x t0 Hx. rewrite Hown. unfold own_upd. destruct (d !! k) as [e|] eqn:He; [|done].
    destruct (N.eqb_spec x e) as [->|]; [|done].
    destruct (w_own _ _ _ Hwf _ _ Hx) as (_ & Hnd & _). destruct Hnd. by exists d, k. }
  eapply OInv_step; eauto.
  - rewrite Hek. destruct Hwf. split; unfold held, indirty in *; simpl; try done.
    + intros d0 k0 x [= <-] Hx. apply lookup_delete_Some in Hx as [_ Hx]. eauto.
    + intros d0 k0 x [= <-] Hx Hc. apply lookup_delete_Some. split; [congruence|eauto].
    + intros k0 x Hx Hc. destruct (w_exp _ _ Hx Hc) as (d1 & Hd1 & Hk1).
      rewrite Hd in Hd1. inversion Hd1; subst d1. eexists. split; [done|].
      apply lookup_delete_None. by right.
    + intros d0 k0 x Ham'. congruence.
    + intros x t0 Hx. destruct (Hown_inv _ _ Hx) as [Hx0|[Hx0 ->]].
      * destruct (w_own _ _ Hx0) as (Hnev & Hnd & Hlt0). split; [done|]. split; [|done].
        intros (d0 & k0 & [= <-] & Hl0). apply lookup_delete_Some in Hl0 as [_ Hl0].
        apply Hnd. by exists d, k0.
      * destruct (w_d d k x Hd Hx0) as [[Hkx Hlt] Hc]. split; [|split; [|done]].
        -- intros [(k0 & Hin)|Hx1]; [|done]. simpl in Hin. destruct (w_rd _ _ Hin) as [Hk0 _]. congruence.
        -- intros (d0 & k0 & [= <-] & Hl0). apply lookup_delete_Some in Hl0 as [Hne Hl0].
           destruct (w_d d k0 x Hd Hl0) as [[Hk0 _] _]. congruence.
  - intros k0. rewrite Habs, lookup_spec_alter, (o_abs _ _ _ _ Ho).
    unfold abs_lookup, dget. simpl. rewrite Ham, Hd.
    destruct (decide (k0 = k)) as [->|Hk0]; [by rewrite Hr, lookup_delete|by rewrite lookup_delete_ne].
  - apply Rely_intro; simpl; try done.
    + intros. by rewrite Hek.
    + intros x t' Hx _. split; [by apply Hown_keep|done].
    + intros k1 e1 _ [H1|(H1 & H2 & H3)]; [left; by left|].
      unfold abs_lookup, dget in *. simpl. rewrite Ham, Hd in *.
      destruct (decide (k1 = k)) as [->|Hk].
      * right. rewrite Hr, H3, lookup_delete. split; [done|by right].
      * left. right. unfold dget. simpl. by rewrite lookup_delete_ne.
    + by left.
Qed.

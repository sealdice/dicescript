(* Every program of the fragment of Model/Ast.v compiles (Model/Compile.v) to byte-code that satisfies
   Model/CodeWf.v `code_wf`: the operands have the shapes the VM asserts and no relative jump goes below
   index 0.  Hence (Proofs/VMSafety.v, C01) a compiled program never reaches a Go panic site.

   Route: `code_wf_from len pc` distributes over `++` (the second part is checked from pc + length of the
   first); expressions only jump forwards, so they are well formed at ANY position; a statement compiled
   with offsets (bo, ao) is well formed at every position pc with bo <= pc, provided 0 <= ao:
     continue   the jump sits d instructions after the start pc of the statement and goes back bo + d + 1;
                opIndex after the jump and the loop's increment is pc - bo >= 0 (the head of the loop;
                at top level, where bo counts from the first instruction, index 0);
     break      jumps forwards by ao >= 0;
     while      the closing jump lands on pc + 1, the first instruction of the condition.
   No bound on the size of the program. *)
From Coq Require Import String NArith ZArith List Bool Lia.
From DS Require Import Model.Str Model.Value Model.VM Model.Ast Model.Compile Model.CodeWf.
From DS Require Import Proofs.CompileFacts Proofs.VMSafety.
Import ListNotations.
Open Scope nat_scope.
Local Notation length := List.length.

Lemma wf_from_app len a : forall pc b,
  code_wf_from len pc (a ++ b) = code_wf_from len pc a && code_wf_from len (pc + length a) b.
Proof.
  induction a as [|i r IH]; intros pc b; cbn [app code_wf_from length].
  - rewrite Nat.add_0_r. reflexivity.
  - replace (pc + S (length r)) with (S pc + length r) by lia.
    rewrite IH, andb_assoc. reflexivity.
Qed.

Lemma wf_from_app_true len a pc b :
  code_wf_from len pc a = true -> code_wf_from len (pc + length a) b = true ->
  code_wf_from len pc (a ++ b) = true.
Proof. intros Ha Hb. rewrite wf_from_app, Ha, Hb. reflexivity. Qed.

Lemma wf_from_cons_true len pc i r :
  instr_wf len pc i = true -> code_wf_from len (S pc) r = true -> code_wf_from len pc (i :: r) = true.
Proof. intros Hi Hr. cbn [code_wf_from]. rewrite Hi, Hr. reflexivity. Qed.

Lemma jump_ok_fwd pc n : (0 <= n)%Z -> jump_ok pc (OInt n) = true.
Proof. intro H. cbn [jump_ok]. apply Z.leb_le. lia. Qed.

Lemma jump_ok_back pc n : (0 <= Z.of_nat pc + n + 1)%Z -> jump_ok pc (OInt n) = true.
Proof. intro H. cbn [jump_ok]. apply Z.leb_le. exact H. Qed.

Lemma instr_wf_bin len pc o : instr_wf len pc (I (bin_opcode o) ONil) = true.
Proof. destruct o; reflexivity. Qed.
Lemma instr_wf_un len pc o : instr_wf len pc (I (un_opcode o) ONil) = true.
Proof. destruct o; reflexivity. Qed.

Definition expr_wfP (e : expr) : Prop := forall len pc, code_wf_from len pc (compile_expr e) = true.

(* one step through straight-line code: split at ++ / ::, a closed instruction by evaluation, an operator
   by its lemma, a sub-expression by its hypothesis; what is left are the jumps *)
Ltac wf_step :=
  first [ apply wf_from_app_true
        | apply wf_from_cons_true
        | reflexivity
        | apply instr_wf_bin
        | apply instr_wf_un
        | match goal with H : expr_wfP ?e |- code_wf_from _ _ (compile_expr ?e) = true => apply H end ].

Lemma expr_wf : forall e, expr_wfP e.
Proof.
  induction e using expr_ind'; unfold expr_wfP; intros len pc.
  1-9, 13-14: cbn [compile_expr]; repeat wf_step.
  - cbn [compile_expr]. repeat wf_step.
    all: cbv [instr_wf i_op i_arg]; apply jump_ok_fwd; unfold zlen; lia.
  - cbn [compile_expr]. repeat wf_step.
    all: cbv [instr_wf i_op i_arg]; apply jump_ok_fwd; unfold zlen; lia.
  - rewrite compile_arr. apply wf_from_app_true; [|reflexivity].
    revert pc. induction H as [|x r Hx Hr IH]; intro pc; cbn [citems]; [reflexivity|].
    apply wf_from_app_true; [apply Hx|apply IH].
Qed.

Lemma pops_wf len d : forall pc, code_wf_from len pc (pops d) = true.
Proof.
  unfold pops. induction d as [|n IH]; intro pc; cbn [repeat]; [reflexivity|].
  apply wf_from_cons_true; [reflexivity|apply IH].
Qed.

Lemma ssize_ge0 d s : (0 <= ssize d s)%Z.
Proof. rewrite ssize_sl. lia. Qed.

(* sizes in nat, then lia *)
Ltac arith :=
  rewrite ?app_length, ?compile_stmt_len, ?pops_len, ?ssize_sl in *; unfold zlen in *; cbn [length] in *; lia.

(* a jump instruction: forwards by a non-negative offset, or back to a position that is not negative *)
Ltac jmp_fwd := cbv [instr_wf i_op i_arg]; apply jump_ok_fwd; arith.
Ltac jmp_back := cbv [instr_wf i_op i_arg]; apply jump_ok_back; arith.

Lemma stmt_wf : forall s d bo ao len pc,
  (0 <= ao)%Z -> (bo <= Z.of_nat pc)%Z -> code_wf_from len pc (compile_stmt d bo ao s) = true.
Proof.
  induction s as [|e|a IHa b IHb|c t IHt e IHe|c b IHb| |]; intros d bo ao len pc Hao Hbo; cbn [compile_stmt].
  - reflexivity.
  - apply expr_wf.
  - apply wf_from_app_true.
    + apply IHa; [pose proof (ssize_ge0 d b); lia|exact Hbo].
    + apply IHb; [exact Hao|arith].
  - apply wf_from_app_true; [apply expr_wf|]. cbn [app].
    apply wf_from_cons_true; [reflexivity|].
    apply wf_from_cons_true; [jmp_fwd|].
    apply wf_from_app_true; [apply IHt; [pose proof (ssize_ge0 (S d) e); lia|arith]|].
    apply wf_from_cons_true; [jmp_fwd|].
    apply wf_from_app_true; [apply IHe; [lia|arith]|reflexivity].
  - cbn [app]. apply wf_from_cons_true; [reflexivity|].
    apply wf_from_app_true; [apply expr_wf|]. cbn [app].
    apply wf_from_cons_true; [jmp_fwd|].
    apply wf_from_app_true; [apply IHb; [lia|arith]|].
    apply wf_from_cons_true; [jmp_back|reflexivity].
  - apply wf_from_app_true; [apply pops_wf|].
    apply wf_from_cons_true; [jmp_fwd|reflexivity].
  - apply wf_from_app_true; [apply pops_wf|].
    apply wf_from_cons_true; [jmp_back|reflexivity].
Qed.

Theorem compile_code_wf : forall p : stmt, code_wf (compile p) = true.
Proof.
  intro p. unfold code_wf, compile. apply wf_from_app_true; [|reflexivity].
  apply stmt_wf; lia.
Qed.

(* with C01 (Proofs/VMSafety.v): a compiled program of the fragment never reaches a Go panic site (the one
   exception is the model-only push.range site, which no compiled program contains anyway) *)
Theorem compiled_program_never_panics :
  forall (p : stmt) E src, ftab_wf (e_ftab E) = true ->
  forall fuel st, state_good st ->
  match run fuel E (compile p) src st with OPanic s => s = range_msg | _ => True end.
Proof.
  intros p E src Hft fuel st Hst.
  exact (C01_run_no_panic_partial E (compile p) src (compile_code_wf p) Hft fuel st Hst).
Qed.

Print Assumptions compile_code_wf.
Print Assumptions compiled_program_never_panics.

(* Model/Matched.v: Matched is a prefix of the input that ends at or before the parser's offset
   and carries no trailing white-space rune, Matched ++ RestInput is the input, and trimming
   twice is trimming once.  Everything rests on trim_len, the length TrimRightFunc keeps. *)
From Coq Require Import NArith List Bool Arith Lia.
From DS Require Import Model.Matched.
Import ListNotations.

Lemma decode_l_size_le l : (snd (decode_l l) <= length l)%nat.
Proof.
  unfold decode_l. destruct l as [|b0 r]; cbn [snd length]; [lia|].
  destruct (b0 <? 128)%N; cbn [snd]; [lia|].
  destruct (b0 <? 194)%N; cbn [snd]; [lia|].
  destruct (b0 <? 224)%N.
  { destruct r as [|b1 r]; cbn [snd length]; [lia|]. destruct (contb b1); cbn [snd]; lia. }
  destruct (b0 <? 240)%N.
  { destruct r as [|b1 [|b2 r]]; cbn [snd length]; try lia.
    destruct (_ && _ && _); cbn [snd]; lia. }
  destruct (b0 <? 245)%N.
  { destruct r as [|b1 [|b2 [|b3 r]]]; cbn [snd length]; try lia.
    destruct (_ && _ && _ && _); cbn [snd]; lia. }
  cbn [snd]; lia.
Qed.

Lemma decode_last_size_le l : (snd (decode_last l) <= length l)%nat.
Proof.
  unfold decode_last. destruct (length l) as [|s0] eqn:E; cbn [snd]; [lia|].
  destruct (nth s0 l 0%N <? 128)%N; cbn [snd]; [lia|].
  match goal with |- context [decode_l ?x] => destruct (decode_l x) as [r size] end.
  match goal with |- context [if ?c then _ else _] => destruct c eqn:Ec end; cbn [snd]; [|lia].
  apply Nat.eqb_eq in Ec. lia.
Qed.

Lemma trim_len_le fuel : forall l, (trim_len fuel l <= length l)%nat.
Proof.
  induction fuel as [|f IH]; intros l; cbn [trim_len]; [lia|].
  destruct (decode_last l) as [r size] eqn:E. destruct size as [|sz]; [lia|].
  destruct (is_space r); [|lia].
  specialize (IH (firstn (length l - S sz) l)). rewrite firstn_length in IH. lia.
Qed.

Lemma trim_len_prefix fuel : forall l, firstn (trim_len fuel l) l = firstn (trim_len fuel l) l.
Proof. reflexivity. Qed.

Lemma firstn_firstn_min (A : Type) (l : list A) a b : firstn a (firstn b l) = firstn (Nat.min a b) l.
Proof. apply firstn_firstn. Qed.

Lemma matched_is_prefix input offset :
  exists k, (k <= offset)%nat /\ (k <= length input)%nat /\ matched input offset = firstn k input.
Proof.
  unfold matched, rtrim. set (p := firstn offset input).
  pose proof (trim_len_le (S (length p)) p) as Hk.
  assert (Hp : length p = Nat.min offset (length input)) by apply firstn_length.
  exists (trim_len (S (length p)) p). split; [lia|]. split; [lia|].
  unfold p at 3. rewrite firstn_firstn_min. f_equal. lia.
Qed.

Theorem matched_rest_split input offset : matched input offset ++ rest input offset = input.
Proof.
  unfold rest. destruct (matched_is_prefix input offset) as [k [Hk [Hl E]]].
  rewrite E. rewrite firstn_length. replace (Nat.min k (length input)) with k by lia.
  apply firstn_skipn.
Qed.

Theorem matched_length_le_offset input offset : (length (matched input offset) <= offset)%nat.
Proof.
  destruct (matched_is_prefix input offset) as [k [Hk [Hl E]]]. rewrite E, firstn_length. lia.
Qed.

(* trimming leaves no trailing white-space rune, when the fuel does not run out first: each
   round removes at least one byte, so more fuel than bytes is enough (rtrim gives length + 1) *)
Lemma trim_len_fixed fuel : forall l, (length l < fuel)%nat ->
  let k := trim_len fuel l in
  let '(r, size) := decode_last (firstn k l) in size = 0%nat \/ is_space r = false.
Proof.
  induction fuel as [|f IH]; intros l Hf; [lia|]. cbn [trim_len].
  destruct (decode_last l) as [r size] eqn:E. destruct size as [|sz].
  - rewrite firstn_all. rewrite E. left; reflexivity.
  - destruct (is_space r) eqn:Es.
    + set (l' := firstn (length l - S sz) l).
      assert (Hl' : (length l' < f)%nat).
      { unfold l'. rewrite firstn_length. pose proof (decode_last_size_le l) as H. rewrite E in H. cbn in H. lia. }
      specialize (IH l' Hl'). cbn zeta in IH.
      pose proof (trim_len_le f l') as Hle.
      assert (Eq : firstn (trim_len f l') l = firstn (trim_len f l') l').
      { unfold l'. rewrite firstn_firstn. f_equal. unfold l' in Hle. rewrite firstn_length in Hle. lia. }
      rewrite Eq. exact IH.
    + rewrite firstn_all. rewrite E. right; exact Es.
Qed.

Theorem matched_has_no_trailing_space input offset :
  let '(r, size) := decode_last (matched input offset) in size = 0%nat \/ is_space r = false.
Proof.
  unfold matched, rtrim. apply trim_len_fixed. lia.
Qed.

Theorem rtrim_idempotent l : rtrim (rtrim l) = rtrim l.
Proof.
  unfold rtrim at 1. set (m := rtrim l).
  pose proof (trim_len_fixed (S (length l)) l ltac:(lia)) as H. cbn zeta in H. fold (rtrim l) in H. fold m in H.
  assert (E : trim_len (S (length m)) m = length m).
  { cbn [trim_len]. destruct (decode_last m) as [r size]. destruct size as [|sz]; [reflexivity|].
    destruct H as [H|H]; [discriminate|]. rewrite H. reflexivity. }
  rewrite E. apply firstn_all.
Qed.

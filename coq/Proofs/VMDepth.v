(* C07 (VM half, call depth): the +100 that every call of a script function / every evaluation of a computed
   value charges to the operation counter bounds the NESTING DEPTH of sub-VM activations ("recursion is bounded").

   exec_depth is an instrumented twin of VM.exec that also returns the maximum number of sub-VM activations nested
   inside one another below the machine that is run (0 = no call was started; a call whose callee starts no call
   = 1; ...).  The instrumentation does not touch Model/VM.v: the result component is computed by the functions of
   the model themselves, with the same `call` parameter; the twins add the depth component at the two places where
   a sub-VM is started (computed_execute, func_invoke) and carry it through their callers.
   Under a limit 0 < L <= MaxInt64 - 100, from a start counter c0 >= 0: a callee starts at >= the caller's start
   + 101 (one dispatch + the 100 of the call) and at <= L, so on a chain of contexts whose counters lie in [0, L]
   (true of the chain `run` starts on, and an invariant of every run) depth <= max 0 ((L - c0) / 101); when the
   counters are only known to be int64 values one more activation may be started on behalf of a CALLING context
   whose counter is within 100 of MaxInt64: the int64 addition wraps to a negative start counter, the limit test
   passes, the first dispatch of that activation is the budget error and it starts nothing.
   Proof: VMSafety's pass over the instructions for an invariant of the context chain, at the two invariants
   "counters int64" / "counters within the budget", and a walk over the twins for the depth. *)
From Coq Require Import String Ascii NArith ZArith List Bool Lia.
From DS Require Import Model.Str Model.PCG Model.Roll Model.Dice Model.Value Model.VM Model.CodeWf Proofs.VMFacts Proofs.VMSafety.
Import ListNotations.
Open Scope Z_scope.

Definition RD (A : Type) : Type := (R A * nat)%type.

Definition rbindd {A B} (r : RD A) (k : A -> world -> RD B) : RD B :=
  match fst r with
  | ROk a w => (fst (k a w), Nat.max (snd r) (snd (k a w)))
  | RFail e w => (RFail e w, snd r)
  | RPanic s => (RPanic s, snd r)
  | RFuel => (RFuel, snd r)
  | RUnsup s => (RUnsup s, snd r)
  end.
Definition rmapwd {A} (f : world -> world) (r : RD A) : RD A := (rmapw f (fst r), snd r).

Section OpsD.
  Variable call : machine -> result.      (* run a sub-VM: its result ... *)
  Variable cdepth : machine -> nat.       (* ... and the nesting depth reached below it *)
  Variable E : env.

  (* VM.computed_execute; where the sub-VM is started: 1 + the depth below it *)
  Definition computed_execute_d (cid : N) (k : nat) (w : world) : RD value :=
    match nth_error (w_chain w) k with
    | None => (RUnsup "context index", O)
    | Some t =>
      let pre := firstn k (w_chain w) in
      let rest := skipn (S k) (w_chain w) in
      let '(mapid, h1) := cattrs_force cid (w_heap w) in
      let ops1 := wrap64 (c_ops t + 100) in
      let t1 := {| c_attrs := c_attrs t; c_ops := ops1 |} in
      let w1 := w_set_chain (w_set_heap w h1) (chain_put pre t1 rest) in
      if limit_hit E ops1 then (RFail EBudget w1, O)
      else match f_lookup (e_ftab E) cid with
           | None => (RUnsup "function table", O)
           | Some d =>
             match f_code d with
             | None => (RUnsup "lazy body", O)
             | Some c =>
               let sub := {| m_fr := new_frame c (Some (f_expr d));
                             m_w := w_set_chain w1 ({| c_attrs := mapid; c_ops := ops1 |} :: t1 :: rest) |} in
               (match call sub with
                | Fin m' =>
                  match w_chain (m_w m') with
                  | s' :: t' :: rest' =>
                    let ret := match fr_live (m_fr m') with v :: _ => v | [] => VNull end in
                    ROk ret (w_set_chain (m_w m') (chain_put pre {| c_attrs := c_attrs t'; c_ops := c_ops s' |} rest'))
                  | _ => RUnsup "context chain"
                  end
                | Fail e m' =>
                  match w_chain (m_w m') with
                  | s' :: t' :: rest' =>
                    RFail e (w_set_chain (m_w m') (chain_put pre {| c_attrs := c_attrs t'; c_ops := Z.max (c_ops t') (c_ops s') |} rest'))
                  | _ => RUnsup "context chain"
                  end
                | Panic s => RPanic s
                | OutOfFuel => RFuel
                | Unsupported s => RUnsup s
                end, S (cdepth sub))
             end
           end
    end.

  Definition func_invoke_d (fid : N) (args : list value) (w : world) : RD value :=
    match f_lookup (e_ftab E) fid, w_chain w with
    | None, _ => (RUnsup "function table", O)
    | _, [] => (RUnsup "context chain", O)
    | Some d, self :: ups =>
      if negb (Nat.eqb (length (f_params d)) (length args)) then (RFail ECall w, O)
      else
        let '(mapid, h1) := alloc_map (bind_params (f_params d) args []) (w_heap w) in
        let ops1 := wrap64 (c_ops self + 100) in
        let self1 := {| c_attrs := c_attrs self; c_ops := ops1 |} in
        let w1 := w_set_chain (w_set_heap w h1) (self1 :: ups) in
        if limit_hit E ops1 then (RFail EBudget w1, O)
        else match f_code d with
             | None => (RUnsup "lazy body", O)
             | Some c =>
               let sub := {| m_fr := new_frame c None;
                             m_w := w_set_chain w1 ({| c_attrs := mapid; c_ops := ops1 |} :: self1 :: ups) |} in
               (match call sub with
                | Fin m' =>
                  match w_chain (m_w m') with
                  | s' :: t' :: rest' =>
                    let ret := match fr_live (m_fr m') with v :: _ => v | [] => VNull end in
                    ROk ret (w_set_chain (m_w m') ({| c_attrs := c_attrs t'; c_ops := c_ops s' |} :: rest'))
                  | _ => RUnsup "context chain"
                  end
                | Fail e m' =>
                  match w_chain (m_w m') with
                  | s' :: t' :: rest' =>
                    RFail e (w_set_chain (m_w m') ({| c_attrs := c_attrs t'; c_ops := Z.max (c_ops t') (c_ops s') |} :: rest'))
                  | [_] => RFail e (w_set_chain (m_w m') [])
                  | [] => RUnsup "context chain"
                  end
                | Panic s => RPanic s
                | OutOfFuel => RFuel
                | Unsupported s => RUnsup s
                end, S (cdepth sub))
             end
    end.

  (* VM.load_walk: several computed values may be evaluated one after the other: the maximum *)
  Fixpoint load_walk_d (n : nat) (k : nat) (name : string) (isRaw : bool) (w : world) : RD value :=
    match n with
    | O => (ROk (load_global name) w, O)
    | S n' =>
      match nth_error (w_chain w) k with
      | None => (ROk (load_global name) w, O)
      | Some c =>
        let val := match mget name (get_map (c_attrs c) (w_heap w)) with Some v => v | None => VNull end in
        let w0 := sync_to k w in
        rbindd (rmapwd (sync_back k)
                  (match val with
                   | VComp cid => if isRaw then (ROk val w0, O) else computed_execute_d cid k w0
                   | _ => (ROk val w0, O)
                   end))
               (fun v w' => match v with
                            | VNull => load_walk_d n' (S k) name isRaw w'
                            | _ => (ROk v w', O)
                            end)
      end
    end.
  Definition load_name_d (name : string) (isRaw : bool) (w : world) : RD value :=
    load_walk_d (length (w_chain w)) 0 name isRaw w.

  Definition load_local_d (name : string) (w : world) : RD value :=
    let val := match mget name (get_map (c_attrs (w_self w)) (w_heap w)) with Some v => v | None => VNull end in
    match val with
    | VComp cid => computed_execute_d cid 0 w
    | _ => (ROk val w, O)
    end.

  (* VM.attr_get starts a sub-VM only for `this.name` *)
  Definition attr_get_d (v : value) (name : string) (w : world) : RD (option value) :=
    match v with
    | VThis => rbindd (load_local_d name w) (fun x w' => (ROk (Some x) w', O))
    | _ => (attr_get call E v name w, O)
    end.

  (* VM.native_call starts a sub-VM only in load / loadRaw / Computed.compute *)
  Definition native_call_d (name : string) (self : vself) (args : list value) (w : world) : RD value :=
    let '(np, defaults) := native_sig name in
    let args' := (args ++ skipn (length args) defaults)%list in
    if negb (Nat.eqb (length args') np) then (RFail ECall w, O)
    else
      let a0 := nth 0 args' VNull in
      if String.eqb name "load" then
        match a0 with VStr n => load_name_d n false w | _ => (RFail EType w, O) end
      else if String.eqb name "loadRaw" then
        match a0 with VStr n => load_name_d n true w | _ => (RFail EType w, O) end
      else if String.eqb name "Computed.compute" then
        match self with SComp cid => computed_execute_d cid 0 w | _ => (RPanic "nil Self", O) end
      else (native_call call E name self args w, O).

  (* VM.step starts sub-VMs only in invoke, attr.get, ld, ld.raw, ld.d: the depth reached by ONE instruction *)
  Definition step_depth (ins : instr) (m : machine) : nat :=
    let fr := m_fr m in
    let w := m_w m in
    match i_op ins, i_arg ins with
    | OpInvoke, OInt n =>
      let '(args, fr1) := pop_n n fr in
      let '(f, fr2) := pop fr1 in
      match f with
      | VFunc fid => snd (func_invoke_d fid args w)
      | VNative name self => snd (native_call_d name self args w)
      | _ => O
      end
    | OpAttrGet, OStr name => let '(obj, fr1) := pop fr in snd (attr_get_d obj name w)
    | OpLd, OStr name => snd (load_name_d name false w)
    | OpLdRaw, OStr name => snd (load_name_d name true w)
    | OpLdD, OStr name => snd (load_name_d name false w)
    | _, _ => O
    end.

  Lemma rbind_ext : forall A B (r : R A) (k1 k2 : A -> world -> R B),
    (forall a w, k1 a w = k2 a w) -> rbind r k1 = rbind r k2.
  Proof. intros A B r k1 k2 H. destruct r; cbn; auto. Qed.

  Lemma fst_rbindd : forall A B (r : RD A) (k : A -> world -> RD B),
    fst (rbindd r k) = rbind (fst r) (fun a w => fst (k a w)).
  Proof. intros A B [r d] k. unfold rbindd. cbn [fst]. destruct r; reflexivity. Qed.

  Lemma computed_execute_d_fst : forall cid k w, fst (computed_execute_d cid k w) = computed_execute call E cid k w.
  Proof.
    intros cid k w. unfold computed_execute_d, computed_execute.
    destruct (nth_error (w_chain w) k); [|reflexivity].
    destruct (cattrs_force cid (w_heap w)) as [mapid h1]. cbv zeta.
    destruct (limit_hit E _); [reflexivity|].
    destruct (f_lookup (e_ftab E) cid) as [d|]; [|reflexivity].
    destruct (f_code d); reflexivity.
  Qed.

  Lemma func_invoke_d_fst : forall fid args w, fst (func_invoke_d fid args w) = func_invoke call E fid args w.
  Proof.
    intros fid args w. unfold func_invoke_d, func_invoke.
    destruct (f_lookup (e_ftab E) fid) as [d|]; [|reflexivity].
    destruct (w_chain w) as [|self ups]; [reflexivity|].
    destruct (negb _); [reflexivity|].
    destruct (alloc_map _ _) as [mapid h1]. cbv zeta.
    destruct (limit_hit E _); [reflexivity|].
    destruct (f_code d); reflexivity.
  Qed.

  Lemma load_walk_d_fst : forall n k name isRaw w, fst (load_walk_d n k name isRaw w) = load_walk call E n k name isRaw w.
  Proof.
    induction n as [|n IH]; intros k name isRaw w; cbn [load_walk_d load_walk]; [reflexivity|].
    destruct (nth_error (w_chain w) k) as [c|]; [|reflexivity]. cbv zeta.
    rewrite fst_rbindd. unfold rmapwd. cbn [fst].
    match goal with |- rbind (rmapw _ ?a) _ = rbind (rmapw _ ?b) _ => assert (Hab : a = b) end.
    { destruct (match mget name _ with Some v => v | None => VNull end); try reflexivity.
      destruct isRaw; [reflexivity|apply computed_execute_d_fst]. }
    rewrite Hab. apply rbind_ext. intros v w'. destruct v; try reflexivity. apply IH.
  Qed.

  Lemma load_name_d_fst : forall name isRaw w, fst (load_name_d name isRaw w) = load_name call E name isRaw w.
  Proof. intros; apply load_walk_d_fst. Qed.

  Lemma load_local_d_fst : forall name w, fst (load_local_d name w) = load_local call E name w.
  Proof.
    intros name w. unfold load_local_d, load_local. cbv zeta.
    destruct (match mget name _ with Some v => v | None => VNull end); try reflexivity. apply computed_execute_d_fst.
  Qed.

  Lemma attr_get_d_fst : forall v name w, fst (attr_get_d v name w) = attr_get call E v name w.
  Proof.
    intros v name w. destruct v; try reflexivity. cbn [attr_get_d attr_get].
    rewrite fst_rbindd, load_local_d_fst. reflexivity.
  Qed.

  Lemma native_call_d_fst : forall name self args w, fst (native_call_d name self args w) = native_call call E name self args w.
  Proof.
    intros name self args w. unfold native_call_d.
    destruct (String.eqb name "load") eqn:H1.
    { apply String.eqb_eq in H1. subst name. cbn.
      destruct (negb _); [reflexivity|]. destruct (nth 0 _ VNull); try reflexivity. apply load_name_d_fst. }
    destruct (String.eqb name "loadRaw") eqn:H2.
    { apply String.eqb_eq in H2. subst name. cbn.
      destruct (negb _); [reflexivity|]. destruct (nth 0 _ VNull); try reflexivity. apply load_name_d_fst. }
    destruct (String.eqb name "Computed.compute") eqn:H3.
    { apply String.eqb_eq in H3. subst name. cbn.
      destruct (negb _); [reflexivity|]. destruct self; try reflexivity. apply computed_execute_d_fst. }
    unfold native_call. destruct (native_sig name) as [np defaults]. cbv zeta.
    destruct (negb _); reflexivity.
  Qed.
End OpsD.

Fixpoint exec_depth (fuel : nat) (E : env) (m : machine) : result * nat :=
  match fuel with
  | O => (OutOfFuel, O)
  | S f =>
    let fr := m_fr m in
    if zlen (fr_code fr) <=? fr_pc fr then
      (match fr_err fr with Some e => Fail e m | None => Fin m end, O)
    else
      let '(m1, over) := count_op E m in
      if over then (Fail EBudget m1, O)
      else match fr_err fr with Some e => (Fail e m1, O) | None =>
      if fr_top fr =? stack_size then (Fail EStack m1, O)
      else if fr_pc fr <? 0 then (Panic "code index negative", O)
      else match nth_error (fr_code fr) (Z.to_nat (fr_pc fr)) with
           | None => (Panic "code index out of range", O)
           | Some ins =>
             let next (m2 : machine) := {| m_fr := fr_set_pc (m_fr m2) (fr_pc (m_fr m2) + 1); m_w := m_w m2 |} in
             (* the sub-VMs this instruction starts run `exec f E`; their depths are those of `exec_depth f E` *)
             let d := step_depth (exec f E) (fun sub => snd (exec_depth f E sub)) E ins m1 in
             match step (exec f E) f E ins m1 with
             | SNext m2 => let '(r, n) := exec_depth f E (next m2) in (r, Nat.max d n)
             | SStop m2 => (Fin m2, d)
             | SFail e m2 => (Fail e m2, d)
             | SPanic s => (Panic s, d)
             | SFuel => (OutOfFuel, d)
             | SUnsup s => (Unsupported s, d)
             end
           end
      end
  end.


Lemma exec_depth_fst : forall fuel E m, fst (exec_depth fuel E m) = exec fuel E m.
Proof. exact (exec_gen_fst Nat.max (fun call cd _ E => step_depth call cd E)). Qed.

Lemma exec_depth_S : forall f E m, exec_depth (S f) E m =
  match exec_head E m with
  | inl r => (r, O)
  | inr ins => exec_after Nat.max (step_depth (exec f E) (fun sub => snd (exec_depth f E sub)) E ins (counted E m)) (exec_depth f E)
                          (step (exec f E) f E ins (counted E m))
  end.
Proof. exact (exec_gen_S Nat.max (fun call cd _ E => step_depth call cd E)). Qed.

(* every counter of the chain of contexts is an int64 value (only the upper bound matters) *)
Definition chain_i64 (w : world) : Prop := Forall (fun c => c_ops c <= MaxInt64) (w_chain w).
(* every counter of the chain, the running context's included, lies in [0, L] (true of the chain `run` starts on, and
   kept by every run) *)
Definition chain_in_budget (L : Z) (w : world) : Prop := Forall (fun c => 0 <= c_ops c <= L) (w_chain w).
Definition PWL (L : Z) (w : world) : Prop := ops_of w <= L /\ Forall (fun c => 0 <= c_ops c <= L) (tl (w_chain w)).
Section ChainInv.
  Variable PW : world -> Prop.
  Definition rct {A} (r : R A) : Prop := match r with ROk _ w => PW w | _ => True end.
End ChainInv.

(* what a run started at counter c may nest: nothing when c is a wrapped (negative) start counter, since its first dispatch
   is the budget error; else (L - c) / 101 levels, + 1 for one activation started on a wrapped counter *)
Definition depth_bound (L c : Z) : Z := if c <? 0 then 0 else Z.max 0 ((L - c) / 101) + 1.

Lemma depth_bound_nonneg : forall L c, 0 <= depth_bound L c.
Proof. intros; unfold depth_bound. destruct (c <? 0); lia. Qed.

Lemma div101_mono : forall L c s, c <= s -> (L - s) / 101 <= (L - c) / 101.
Proof. intros; apply Z.div_le_mono; lia. Qed.

(* a callee that starts 101 later can nest one level less *)
Lemma div101_step : forall L c s, c + 101 <= s <= L -> 0 <= (L - s) / 101 <= (L - c) / 101 - 1.
Proof.
  intros L c s H. split; [apply Z.div_pos; lia|].
  replace (L - c) with ((L - c - 101) + 1 * 101) by lia. rewrite Z.div_add by lia.
  assert ((L - s) / 101 <= (L - c - 101) / 101) by (apply Z.div_le_mono; lia). lia.
Qed.

Lemma wrap64_over : forall z, MaxInt64 < z <= MaxInt64 + two63 -> wrap64 z = z - two64.
Proof.
  intros z H. unfold wrap64.
  rewrite <- (Z.mod_unique (z + two63) two64 1 (z + two63 - two64)); unfold MaxInt64, two63, two64 in *; lia.
Qed.

(* a negative counter: numOpCountAdd's overflow test itself overflows and the counter saturates *)
Lemma ops_add_neg : forall c ops, 0 < cfg_op_limit c < MaxInt64 -> MinInt64 <= ops < 0 ->
  ops_add c ops 1 = (MaxInt64, true).
Proof.
  intros c ops HL H. unfold ops_add.
  rewrite (wrap64_over (MaxInt64 - ops)) by (unfold MaxInt64, MinInt64, two63 in *; lia).
  assert (A : MaxInt64 - ops - two64 <? 1 = true) by (apply Z.ltb_lt; unfold MaxInt64, MinInt64, two64 in *; lia).
  rewrite A. f_equal. apply andb_true_iff. split; apply Z.ltb_lt; lia.
Qed.

Lemma sub_start : forall E L c x, cfg_op_limit (e_cfg E) = L -> 0 < L <= MaxInt64 - 100 -> 0 <= c <= x -> x <= MaxInt64 ->
  limit_hit E (wrap64 (x + 100)) = false -> wrap64 (x + 100) < 0 \/ c + 100 <= wrap64 (x + 100) <= L.
Proof.
  intros E L c x HL HLr Hc Hx Hlim. destruct (Z_le_gt_dec (x + 100) MaxInt64) as [Hle|Hgt].
  - right. rewrite wrap64_id in * by (unfold in_i64, two63, MaxInt64 in *; lia).
    unfold limit_hit in Hlim. rewrite HL in Hlim. apply andb_false_iff in Hlim.
    destruct Hlim as [Hlim|Hlim]; apply Z.ltb_ge in Hlim; lia.
  - left. rewrite wrap64_over by (unfold MaxInt64, two63 in *; lia). unfold MaxInt64, two64 in *. lia.
Qed.

Lemma computed_execute_d_snd : forall call cd E cid k w,
  snd (computed_execute_d call cd E cid k w) = match ce_sub E cid k w with Some sub => S (cd sub) | None => O end.
Proof.
  intros. unfold computed_execute_d, ce_sub. destruct (nth_error (w_chain w) k); [|reflexivity].
  destruct (cattrs_force cid (w_heap w)) as [mapid h1]. cbv zeta. destruct (limit_hit E _); [reflexivity|].
  destruct (f_lookup (e_ftab E) cid) as [d|]; [|reflexivity]. destruct (f_code d); reflexivity.
Qed.
Lemma func_invoke_d_snd : forall call cd E fid args w,
  snd (func_invoke_d call cd E fid args w) = match fi_sub E fid args w with Some sub => S (cd sub) | None => O end.
Proof.
  intros. unfold func_invoke_d, fi_sub. destruct (f_lookup (e_ftab E) fid) as [d|]; [|reflexivity].
  destruct (w_chain w) as [|self ups]; [reflexivity|]. destruct (negb _); [reflexivity|].
  destruct (alloc_map _ _) as [mapid h1]. cbv zeta. destruct (limit_hit E _); [reflexivity|]. destruct (f_code d); reflexivity.
Qed.

(* The depth one instruction reaches, given an invariant PW of the context chain (VMSafety.chain_inv) under which every
   sub-VM that is started nests less than D deep.  PD rd: the result keeps PW and the depth counted is at most D *)
Section DepthPass.
  Variable call : machine -> result.
  Variable cdepth : machine -> nat.
  Variable E : env.
  Variable L : Z.
  Variable PW : world -> Prop.
  Hypothesis HPW : chain_inv call E L PW.
  Variable D : nat.
  Hypothesis Hsub : forall k w sub, PW w -> ops_of w <= ops_at k w -> started E k w sub -> (S (cdepth sub) <= D)%nat.

  Definition PD {A} (rd : RD A) : Prop := rchain PW (fst rd) /\ (snd rd <= D)%nat.

  Lemma PD_ret : forall A (r : R A), rchain PW r -> PD (r, O).
  Proof. intros A r H. split; [exact H|apply Nat.le_0_l]. Qed.

  Lemma PD_rbindd : forall A B (r : RD A) (k : A -> world -> RD B),
    PD r -> (forall a w, PW w -> PD (k a w)) -> PD (rbindd r k).
  Proof.
    intros A B [r d] k [P1 P2] Hk. unfold rbindd, PD in *. cbn [fst snd] in *.
    destruct r; cbn [fst snd rsat]; try (split; [exact Logic.I|exact P2]).
    destruct (Hk a w P1) as [K1 K2]. split; [exact K1|apply Nat.max_lub; assumption].
  Qed.

  Lemma computed_execute_d_inv : forall cid k w, PW w -> ops_of w <= ops_at k w -> (k = 0%nat -> ops_of w <= L) ->
    PD (computed_execute_d call cdepth E cid k w).
  Proof.
    intros cid k w Hw Hge Hk. split.
    - rewrite computed_execute_d_fst. apply (computed_execute_chain call E L PW HPW); assumption.
    - rewrite computed_execute_d_snd. destruct (ce_sub E cid k w) as [sub|] eqn:Hs; [|apply Nat.le_0_l].
      exact (Hsub k w sub Hw Hge (ce_sub_started _ _ _ _ _ Hs)).
  Qed.

  Lemma func_invoke_d_inv : forall fid args w, PW w -> ops_of w <= L -> PD (func_invoke_d call cdepth E fid args w).
  Proof.
    intros fid args w Hw Hk. split.
    - rewrite func_invoke_d_fst. apply (func_invoke_chain call E L PW HPW); assumption.
    - rewrite func_invoke_d_snd. destruct (fi_sub E fid args w) as [sub|] eqn:Hs; [|apply Nat.le_0_l].
      refine (Hsub 0%nat w sub Hw _ (fi_sub_started _ _ _ _ _ Hs)). rewrite ops_at_0. lia.
  Qed.

  Lemma load_walk_d_inv : forall n k name isRaw w, PW w -> (k = 0%nat -> ops_of w <= L) ->
    PD (load_walk_d call cdepth E n k name isRaw w).
  Proof.
    induction n as [|n IH]; intros k name isRaw w Hw Hk; cbn [load_walk_d]; [apply PD_ret; exact Hw|].
    destruct (nth_error (w_chain w) k) as [c|] eqn:Hn; [|apply PD_ret; exact Hw]. cbv zeta.
    pose proof (inv_to _ _ _ _ HPW k w Hw) as Hw0.
    apply PD_rbindd.
    - assert (Hb : forall A (r : RD A), PD r -> PD (rmapwd (sync_back k) r)).
      { intros A [r d] [P1 P2]. split; [|exact P2]. destruct r; cbn; auto. apply (inv_back _ _ _ _ HPW). exact P1. }
      apply Hb. destruct (match mget name _ with Some v => v | None => VNull end); try (apply PD_ret; exact Hw0).
      destruct isRaw; [apply PD_ret; exact Hw0|].
      apply computed_execute_d_inv; [exact Hw0|exact (sync_to_ge _ _ _ Hn)|intros ->; exact (Hk eq_refl)].
    - intros v w' Hw'. destruct v; try (apply PD_ret; exact Hw'). apply IH; [exact Hw'|discriminate].
  Qed.

  Lemma load_local_d_inv : forall name w, PW w -> ops_of w <= L -> PD (load_local_d call cdepth E name w).
  Proof.
    intros name w Hw Hk. unfold load_local_d. cbv zeta.
    destruct (match mget name _ with Some v => v | None => VNull end); try (apply PD_ret; exact Hw).
    apply computed_execute_d_inv; [exact Hw|rewrite ops_at_0; lia|intros _; exact Hk].
  Qed.

  Lemma attr_get_d_inv : forall v name w, PW w -> ops_of w <= L -> PD (attr_get_d call cdepth E v name w).
  Proof.
    intros v name w Hw Hk.
    destruct v; try (apply PD_ret; apply (attr_get_chain call E L PW HPW); assumption).
    cbn [attr_get_d]. apply PD_rbindd; [apply load_local_d_inv; assumption|].
    intros x w' Hw'. apply PD_ret. exact Hw'.
  Qed.

  Lemma native_call_d_inv : forall name self args w, PW w -> ops_of w <= L -> PD (native_call_d call cdepth E name self args w).
  Proof.
    intros name self args w Hw Hk. unfold native_call_d.
    destruct (native_sig name) as [np defaults]. cbv zeta.
    destruct (negb _); [apply PD_ret; exact Logic.I|].
    destruct (String.eqb name "load").
    { destruct (nth 0 _ VNull); try (apply PD_ret; exact Logic.I). apply load_walk_d_inv; auto. }
    destruct (String.eqb name "loadRaw").
    { destruct (nth 0 _ VNull); try (apply PD_ret; exact Logic.I). apply load_walk_d_inv; auto. }
    destruct (String.eqb name "Computed.compute").
    { destruct self; try (apply PD_ret; exact Logic.I).
      apply computed_execute_d_inv; [exact Hw|rewrite ops_at_0; lia|intros _; exact Hk]. }
    apply PD_ret. apply (native_call_chain call E L PW HPW); assumption.
  Qed.

  Theorem step_depth_le : forall ins m, PW (m_w m) -> ops_of (m_w m) <= L -> (step_depth call cdepth E ins m <= D)%nat.
  Proof.
    intros [op o] m Hw Hk. unfold step_depth; cbn [i_op i_arg].
    destruct op; try apply Nat.le_0_l; destruct o; try apply Nat.le_0_l.
    - apply load_walk_d_inv; auto.
    - apply load_walk_d_inv; auto.
    - apply load_walk_d_inv; auto.
    - destruct (pop_n z (m_fr m)) as [args fr1]. destruct (pop fr1) as [f fr2]. destruct f; try apply Nat.le_0_l.
      + apply func_invoke_d_inv; assumption.
      + apply native_call_d_inv; assumption.
    - destruct (pop (m_fr m)) as [obj fr1]. apply attr_get_d_inv; assumption.
  Qed.
End DepthPass.

Lemma started_sub64 : forall E L c k w sub, cfg_op_limit (e_cfg E) = L -> 0 < L <= MaxInt64 - 100 -> 0 <= c ->
  WP c (fun z => z <= MaxInt64) w -> ops_of w <= ops_at k w -> started E k w sub ->
  w_chain (m_w sub) <> [] /\ dice_ok (m_fr sub) /\ chain_i64 (m_w sub) /\ MinInt64 <= ops_of (m_w sub) /\
  (ops_of (m_w sub) < 0 \/ c + 100 <= ops_of (m_w sub) <= L).
Proof.
  intros E L c k w sub HL HLr Hc [[_ Hw] Hp] Hge Hs. destruct (started_head _ _ _ _ Hs) as (S1 & S2 & S3 & S4).
  pose proof (wrap64_range (ops_at k w + 100)) as Hr.
  assert (Hx : ops_at k w <= MaxInt64) by (apply (ops_at_Forall (fun z => z <= MaxInt64)); [unfold MaxInt64; lia|exact Hp]).
  split; [exact S1|]. split; [unfold dice_ok; rewrite S2; constructor|].
  split; [exact (started_Forall _ _ _ _ (fun z => z <= MaxInt64) Hs (proj2 Hr) Hp)|]. rewrite S3. split; [exact (proj1 Hr)|].
  apply (sub_start E L c); [exact HL|exact HLr|lia|exact Hx|exact S4].
Qed.

Definition WB (L c : Z) : world -> Prop := WP c (fun z => 0 <= z <= L).

Lemma W_PWL_chain : forall L c w, 0 <= c -> W c w -> PWL L w -> chain_in_budget L w.
Proof.
  unfold W, PWL, chain_in_budget, ops_of, w_self. intros L c w Hc [Hne Ho] [Hh Hct]. destruct (w_chain w) as [|x r]; [congruence|].
  cbn in *. constructor; [lia|exact Hct].
Qed.
Lemma chain_PWL : forall L w, 0 <= L -> chain_in_budget L w -> PWL L w.
Proof.
  unfold PWL, chain_in_budget, ops_of, w_self. intros L w HL H. destruct (w_chain w) as [|x r]; cbn; [split; [lia|constructor]|].
  pose proof (Forall_inv H) as Hx. cbv beta in Hx. split; [lia|exact (Forall_inv_tail H)].
Qed.

Lemma started_in_budget : forall E L c k w sub, cfg_op_limit (e_cfg E) = L -> 0 < L <= MaxInt64 - 100 -> 0 <= c ->
  WB L c w -> ops_of w <= ops_at k w -> started E k w sub ->
  w_chain (m_w sub) <> [] /\ dice_ok (m_fr sub) /\ chain_in_budget L (m_w sub) /\ ops_of (m_w sub) = ops_at k w + 100 /\ ops_at k w + 100 <= L.
Proof.
  intros E L c k w sub HL HLr Hc [[_ Hw] Hp] Hge Hs. destruct (started_head _ _ _ _ Hs) as (S1 & S2 & S3 & S4).
  assert (Hx : 0 <= ops_at k w <= L) by (apply (ops_at_Forall (fun z => 0 <= z <= L)); [lia|exact Hp]).
  rewrite wrap64_id in S3, S4 by (unfold in_i64, two63, MaxInt64 in *; lia).
  assert (Hle : ops_at k w + 100 <= L).
  { unfold limit_hit in S4. rewrite HL in S4. apply andb_false_iff in S4. destruct S4 as [S4|S4]; apply Z.ltb_ge in S4; lia. }
  split; [exact S1|]. split; [unfold dice_ok; rewrite S2; constructor|]. split; [|split; [exact S3|exact Hle]].
  apply (started_Forall _ _ _ _ (fun z => 0 <= z <= L) Hs); [|exact Hp].
  rewrite wrap64_id by (unfold in_i64, two63, MaxInt64 in *; lia). lia.
Qed.

Lemma in_budget_inv : forall call E L c, cfg_op_limit (e_cfg E) = L -> 0 < L <= MaxInt64 - 100 -> 0 <= c ->
  (forall m m', run_pre m -> call m = Fin m' -> ops_of (m_w m) <= ops_of (m_w m') <= MaxInt64) ->
  (forall sub, w_chain (m_w sub) <> [] -> dice_ok (m_fr sub) -> chain_in_budget L (m_w sub) ->
     forall m', call sub = Fin m' -> chain_in_budget L (m_w m')) ->
  chain_inv call E L (WB L c).
Proof.
  intros call E L c HL HLr Hc Hcall Hfin. apply (WP_inv call E L HLr Hcall c Hc).
  - intros x Hx. lia.
  - intros k w [_ Hp]. assert (Hx : 0 <= ops_at k w <= L) by (apply (ops_at_Forall (fun z => 0 <= z <= L)); [lia|exact Hp]).
    rewrite wrap64_id by (unfold in_i64, two63, MaxInt64 in *; lia). exact Hx.
  - intros k w sub m' Hw Hge Hs. destruct (started_in_budget E L c k w sub HL HLr Hc Hw Hge Hs) as (S1 & S2 & S3 & _).
    exact (Hfin sub S1 S2 S3 m').
Qed.

Lemma exec_depth_aux : forall E L, cfg_op_limit (e_cfg E) = L -> 0 < L <= MaxInt64 - 100 ->
  forall fuel m, w_chain (m_w m) <> [] -> MinInt64 <= ops_of (m_w m) -> dice_ok (m_fr m) -> chain_i64 (m_w m) ->
  (forall m', exec fuel E m = Fin m' -> chain_i64 (m_w m')) /\
  Z.of_nat (snd (exec_depth fuel E m)) <= depth_bound L (ops_of (m_w m)).
Proof.
  intros E L HL HLr. assert (HLr' : 0 < L < MaxInt64) by (unfold MaxInt64 in *; lia).
  induction fuel as [|f IH]; intros m Hch Hmin Hdice HCH.
  - cbn. split; [discriminate|apply depth_bound_nonneg].
  - pose proof (depth_bound_nonneg L (ops_of (m_w m))) as Hnn.
    rewrite <- exec_depth_fst, exec_depth_S. destruct (exec_head E m) as [r|ins] eqn:Hh; cbn [fst snd].
    { split; [|exact Hnn]. intros m' ->. apply exec_head_Fin in Hh. subst m'. exact HCH. }
    pose proof (exec_head_inr _ _ _ Hh) as Hov.
    destruct (Z_lt_ge_dec (ops_of (m_w m)) 0) as [Hneg|Hpos].
    { (* a wrapped start counter: the first dispatch reports the budget error *)
      rewrite ops_add_neg in Hov by (rewrite ?HL; lia). discriminate. }
    assert (Hmax : ops_of (m_w m) <= MaxInt64).
    { unfold chain_i64, ops_of, w_self in *. destruct (w_chain (m_w m)); [congruence|exact (Forall_inv HCH)]. }
    destruct (counted_in E L m HL HLr' Hch ltac:(lia) Hov) as (C1 & C2 & C3).
    set (c := ops_of (m_w m) + 1) in *. assert (Hc : 0 <= c) by lia.
    assert (Hcall : forall m0 m', run_pre m0 -> exec f E m0 = Fin m' -> ops_of (m_w m0) <= ops_of (m_w m') <= MaxInt64)
      by (intros m0 m'; apply (C07_counter_never_lowered E L HL HLr f)).
    assert (Hsub : forall k w sub, WP c (fun z => z <= MaxInt64) w -> ops_of w <= ops_at k w -> started E k w sub ->
              (forall m', exec f E sub = Fin m' -> chain_i64 (m_w m')) /\
              Z.of_nat (snd (exec_depth f E sub)) + 1 <= depth_bound L (ops_of (m_w m))).
    { intros k w sub Hw Hge Hs. destruct (started_sub64 E L c k w sub HL HLr Hc Hw Hge Hs) as (S1 & S2 & S3 & S4 & S5).
      destruct (IH sub S1 S4 S2 S3) as [I1 I2]. split; [exact I1|].
      unfold depth_bound in *. destruct (ops_of (m_w m) <? 0) eqn:H0; [apply Z.ltb_lt in H0; lia|].
      destruct (ops_of (m_w sub) <? 0) eqn:H1; [lia|]. apply Z.ltb_ge in H1.
      pose proof (div101_step L (ops_of (m_w m)) (ops_of (m_w sub))). lia. }
    assert (HPW : chain_inv (exec f E) E L (WP c (fun z => z <= MaxInt64))).
    { apply (WP_inv (exec f E) E L HLr Hcall c Hc).
      - intros x Hx. unfold MaxInt64 in *. lia.
      - intros k w _. apply wrap64_range.
      - intros k w sub m' Hw Hge Hs. exact (proj1 (Hsub k w sub Hw Hge Hs) m'). }
    assert (Hw1 : WP c (fun z => z <= MaxInt64) (m_w (counted E m))).
    { split; [split; [exact C3|unfold MaxInt64 in *; lia]|]. refine (set_self_ops_Forall (fun z => z <= MaxInt64) _ _ _ HCH). cbv beta. rewrite <- (counted_ops E m Hch), C1. unfold MaxInt64 in *; lia. }
    pose proof (step_chain (exec f E) f E L HL HLr _ HPW ins (counted E m) Hw1 ltac:(lia) Hdice) as HQ.
    assert (HD : Z.of_nat (step_depth (exec f E) (fun sub => snd (exec_depth f E sub)) E ins (counted E m))
                 <= depth_bound L (ops_of (m_w m))).
    { apply Z.le_trans with (m := Z.of_nat (Z.to_nat (depth_bound L (ops_of (m_w m))))); [|lia]. apply Nat2Z.inj_le.
      apply (step_depth_le (exec f E) _ E L _ HPW); [|exact Hw1|lia].
      intros k w sub Hw Hge Hs. destruct (Hsub k w sub Hw Hge Hs) as [_ H]. lia. }
    destruct (step (exec f E) f E ins (counted E m)) as [m2|m2|e m2|s| |s]; cbn [exec_after fst snd]; try (split; [discriminate|exact HD]).
    + destruct HQ as [[[W1 W2] W3] D2].
      destruct (IH (next_pc m2) W1 ltac:(cbn [next_pc m_w]; unfold MinInt64; lia) D2 W3) as [I1 I2].
      rewrite exec_depth_fst. split; [exact I1|]. cbn [next_pc m_w] in I2.
      assert (depth_bound L (ops_of (m_w m2)) <= depth_bound L (ops_of (m_w m))).
      { unfold depth_bound. destruct (ops_of (m_w m) <? 0) eqn:H0; [apply Z.ltb_lt in H0; lia|].
        destruct (ops_of (m_w m2) <? 0) eqn:H1; [apply Z.ltb_lt in H1; lia|].
        pose proof (div101_mono L (ops_of (m_w m)) (ops_of (m_w m2))). lia. }
      lia.
    + split; [|exact HD]. intros m' [= <-]. exact (proj2 HQ).
Qed.

(* the nesting depth of sub-VM activations is bounded by the budget.  From a start counter c0 the first
   callee starts at >= c0 + 101 (one dispatch, + 100 for the call) and must start at <= L, and so on: at most
   (L - c0) / 101 levels; the last "+ 1" is one activation started for a calling context whose counter + 100
   wraps around int64 (possible only for a chain that already holds a counter > MaxInt64 - 100): it starts on
   a negative counter, its first dispatch is the budget error, it starts nothing *)
Theorem C07_call_depth_bounded : forall E L, cfg_op_limit (e_cfg E) = L -> 0 < L <= MaxInt64 - 100 ->
  forall fuel m, run_pre m -> chain_i64 (m_w m) ->
  fst (exec_depth fuel E m) = exec fuel E m /\
  Z.of_nat (snd (exec_depth fuel E m)) <= Z.max 0 ((L - ops_of (m_w m)) / 101) + 1.
Proof.
  intros E L HL HLr fuel m (Hch & Hops & Hdice) HCH. split; [apply exec_depth_fst|].
  destruct (exec_depth_aux E L HL HLr fuel m Hch) as [_ H]; [unfold MinInt64; lia|exact Hdice|exact HCH|].
  unfold depth_bound in H. destruct (ops_of (m_w m) <? 0) eqn:Hlt; [apply Z.ltb_lt in Hlt; lia|exact H].
Qed.

Corollary C07_call_depth_bounded_100 : forall E L, cfg_op_limit (e_cfg E) = L -> 0 < L <= MaxInt64 - 100 ->
  forall fuel m, run_pre m -> chain_i64 (m_w m) ->
  Z.of_nat (snd (exec_depth fuel E m)) <= Z.max 0 ((L - ops_of (m_w m)) / 100) + 1.
Proof.
  intros E L HL HLr fuel m Hpre HCH. destruct (C07_call_depth_bounded E L HL HLr fuel m Hpre HCH) as [_ H].
  assert ((L - ops_of (m_w m)) / 101 <= Z.max 0 ((L - ops_of (m_w m)) / 100)); [|lia].
  destruct (Z_lt_ge_dec (L - ops_of (m_w m)) 0) as [Hn|Hp].
  - assert ((L - ops_of (m_w m)) / 101 < 0) by (apply Z.div_lt_upper_bound; lia). lia.
  - assert ((L - ops_of (m_w m)) / 101 <= (L - ops_of (m_w m)) / 100) by (apply Z.div_le_compat_l; lia). lia.
Qed.

(* the same induction with every counter of the chain within the budget: no wrapped start, no "+ 1" *)
Lemma exec_depth_exact_aux : forall E L, cfg_op_limit (e_cfg E) = L -> 0 < L <= MaxInt64 - 100 ->
  forall fuel m, w_chain (m_w m) <> [] -> dice_ok (m_fr m) -> chain_in_budget L (m_w m) ->
  (forall m', exec fuel E m = Fin m' -> chain_in_budget L (m_w m')) /\
  Z.of_nat (snd (exec_depth fuel E m)) <= Z.max 0 ((L - ops_of (m_w m)) / 101).
Proof.
  intros E L HL HLr. assert (HLr' : 0 < L < MaxInt64) by (unfold MaxInt64 in *; lia).
  induction fuel as [|f IH]; intros m Hch Hdice HCH.
  - cbn. split; [discriminate|lia].
  - assert (Hops : 0 <= ops_of (m_w m) <= L).
    { unfold chain_in_budget, ops_of, w_self in *. destruct (w_chain (m_w m)); [congruence|exact (Forall_inv HCH)]. }
    rewrite <- exec_depth_fst, exec_depth_S. destruct (exec_head E m) as [r|ins] eqn:Hh; cbn [fst snd].
    { split; [|lia]. intros m' ->. apply exec_head_Fin in Hh. subst m'. exact HCH. }
    destruct (counted_in E L m HL HLr' Hch ltac:(lia) (exec_head_inr _ _ _ Hh)) as (C1 & C2 & C3).
    set (c := ops_of (m_w m) + 1) in *. assert (Hc : 0 <= c) by lia.
    assert (Hcall : forall m0 m', run_pre m0 -> exec f E m0 = Fin m' -> ops_of (m_w m0) <= ops_of (m_w m') <= MaxInt64)
      by (intros m0 m'; apply (C07_counter_never_lowered E L HL HLr f)).
    assert (HPW : chain_inv (exec f E) E L (WB L c)).
    { apply (in_budget_inv (exec f E) E L c HL HLr Hc Hcall). intros sub S1 S2 S3. exact (proj1 (IH sub S1 S2 S3)). }
    assert (Hw1 : WB L c (m_w (counted E m))).
    { split; [split; [exact C3|unfold MaxInt64 in *; lia]|]. refine (set_self_ops_Forall (fun z => 0 <= z <= L) _ _ _ HCH). cbv beta. rewrite <- (counted_ops E m Hch), C1. lia. }
    pose proof (step_chain (exec f E) f E L HL HLr _ HPW ins (counted E m) Hw1 ltac:(lia) Hdice) as HQ.
    assert (HD : Z.of_nat (step_depth (exec f E) (fun sub => snd (exec_depth f E sub)) E ins (counted E m))
                 <= Z.max 0 ((L - ops_of (m_w m)) / 101)).
    { apply Z.le_trans with (m := Z.of_nat (Z.to_nat (Z.max 0 ((L - ops_of (m_w m)) / 101)))); [|lia]. apply Nat2Z.inj_le.
      apply (step_depth_le (exec f E) _ E L _ HPW); [|exact Hw1|lia].
      intros k w sub Hw Hge Hs. destruct (started_in_budget E L c k w sub HL HLr Hc Hw Hge Hs) as (S1 & S2 & S3 & S4 & S5).
      destruct (IH sub S1 S2 S3) as [_ I2]. destruct Hw as [[_ Hw] _].
      pose proof (div101_step L (ops_of (m_w m)) (ops_of (m_w sub))). lia. }
    destruct (step (exec f E) f E ins (counted E m)) as [m2|m2|e m2|s| |s]; cbn [exec_after fst snd]; try (split; [discriminate|exact HD]).
    + destruct HQ as [[[W1 W2] W3] D2].
      destruct (IH (next_pc m2) W1 D2 W3) as [I1 I2]. rewrite exec_depth_fst. split; [exact I1|]. cbn [next_pc m_w] in I2.
      pose proof (div101_mono L (ops_of (m_w m)) (ops_of (m_w m2))). lia.
    + split; [|exact HD]. intros m' [= <-]. exact (proj2 HQ).
Qed.

(* when every counter of the chain lies within the budget (the chain `run` starts on; kept by every
   run), no start counter wraps and the depth is at most (L - c0) / 101; attained: C07_call_depth_tight *)
Theorem C07_call_depth_exact : forall E L, cfg_op_limit (e_cfg E) = L -> 0 < L <= MaxInt64 - 100 ->
  forall fuel m, w_chain (m_w m) <> [] -> dice_ok (m_fr m) -> chain_in_budget L (m_w m) ->
  fst (exec_depth fuel E m) = exec fuel E m /\
  Z.of_nat (snd (exec_depth fuel E m)) <= Z.max 0 ((L - ops_of (m_w m)) / 101) /\
  (forall m', exec fuel E m = Fin m' -> chain_in_budget L (m_w m')).
Proof.
  intros E L HL HLr fuel m Hch Hdice HCH. split; [apply exec_depth_fst|].
  destruct (exec_depth_exact_aux E L HL HLr fuel m Hch Hdice HCH) as [H1 H2]. split; assumption.
Qed.

(* every sub-VM starts on a counter that is either wrapped (negative) or at least 100 above the counter of the
   context it is started for, and within the limit: the fact the depth bound rests on *)
Theorem C07_callee_start_counter : forall E L x, cfg_op_limit (e_cfg E) = L -> 0 < L <= MaxInt64 - 100 ->
  0 <= x <= MaxInt64 -> limit_hit E (wrap64 (x + 100)) = false ->
  wrap64 (x + 100) < 0 \/ x + 100 <= wrap64 (x + 100) <= L.
Proof. intros E L x HL HLr Hx Hlim. apply (sub_start E L x x HL HLr); [lia|lia|exact Hlim]. Qed.

(* the machine `run` starts: one context, counter 0 *)
Corollary C07_run_call_depth : forall E L c src st fuel, cfg_op_limit (e_cfg E) = L -> 0 < L <= MaxInt64 - 100 ->
  let m0 := {| m_fr := new_frame c (Some src);
               m_w := {| w_heap := vs_heap st; w_pcg := vs_pcg st; w_st := [];
                         w_chain := [{| c_attrs := vs_attrs st; c_ops := 0 |}] |} |} in
  Z.of_nat (snd (exec_depth fuel E m0)) <= L / 101.
Proof.
  intros E L c src st fuel HL HLr m0.
  destruct (C07_call_depth_exact E L HL HLr fuel m0) as (_ & H & _).
  { unfold m0; cbn. discriminate. }
  { unfold m0, dice_ok; cbn. constructor. }
  { unfold chain_in_budget, m0; cbn. constructor; [cbn; lia|constructor]. }
  change (ops_of (m_w m0)) with 0 in H. rewrite Z.sub_0_r in H.
  assert (0 <= L / 101) by (apply Z.div_pos; lia). lia.
Qed.
(* a computed value that evaluates itself: `x = &x` ... *)
Definition ftab_rec : ftab :=
  [ {| f_computed := true; f_name := "x"; f_params := []; f_expr := "x"; f_code := Some [I OpLd (OStr "x")] |} ].
Definition env_rec (L : Z) : env := {| e_ftab := ftab_rec; e_cfg := e_cfg (env_lim L) |}.
Definition mach (c : code) (w : world) : machine := {| m_fr := new_frame c (Some "x"%string); m_w := w |}.
Definition w_start : world :=
  {| w_heap := vs_heap st0; w_pcg := vs_pcg st0; w_st := []; w_chain := [{| c_attrs := vs_attrs st0; c_ops := 0 |}] |}.
Definition prog_rec : code := [I OpPushComputed (OFn 0%N); I OpStore (OStr "x"); I OpLd (OStr "x")].
(* ... and a script function that calls itself: `func f() { f() }; f()` *)
Definition ftab_f : ftab :=
  [ {| f_computed := false; f_name := "f"; f_params := []; f_expr := "f()";
       f_code := Some [I OpPushFunc (OFn 0%N); I OpInvoke (OInt 0)] |} ].
Definition is_budget (r : result) : bool := match r with Fail EBudget _ => true | _ => false end.
Definition chain_i64b (w : world) : bool := forallb (fun c => c_ops c <=? MaxInt64) (w_chain w).
Lemma chain_i64b_ok : forall w, chain_i64b w = true -> chain_i64 w.
Proof.
  unfold chain_i64b, chain_i64. intros w H. rewrite forallb_forall in H. apply Forall_forall. intros c Hc.
  apply Z.leb_le. apply H. exact Hc.
Qed.
Definition chain_in_budgetb (L : Z) (w : world) : bool := forallb (fun c => (0 <=? c_ops c) && (c_ops c <=? L)) (w_chain w).
Lemma chain_in_budgetb_ok : forall L w, chain_in_budgetb L w = true -> chain_in_budget L w.
Proof.
  unfold chain_in_budgetb, chain_in_budget. intros L w H. rewrite forallb_forall in H. apply Forall_forall. intros c Hc.
  specialize (H c Hc). apply andb_true_iff in H. destruct H as [H1 H2]. apply Z.leb_le in H1, H2. lia.
Qed.
Definition run_preb (m : machine) : bool :=
  match w_chain (m_w m), fr_dice (m_fr m) with
  | c :: _, [] => (0 <=? c_ops c) && (c_ops c <=? MaxInt64)
  | _, _ => false
  end.
Lemma run_preb_ok : forall m, run_preb m = true -> run_pre m.
Proof.
  unfold run_preb, run_pre, ops_of, w_self, dice_ok. intros m H.
  destruct (w_chain (m_w m)) as [|c r]; [discriminate|]. destruct (fr_dice (m_fr m)); [|discriminate].
  apply andb_true_iff in H. destruct H as [H1 H2]. apply Z.leb_le in H1, H2.
  split; [discriminate|]. split; [cbn; lia|constructor].
Qed.

(* the recursion is stopped by the budget, after 2 (limit 250), 9 (limit 1000), 4 (function, limit 500) nested sub-VMs *)
Example C07_call_depth_example :
  (let r := exec_depth 50 (env_rec 250) (mach prog_rec w_start) in (is_budget (fst r), snd r) = (true, 2%nat)) /\
  (let r := exec_depth 50 (env_rec 1000) (mach prog_rec w_start) in (is_budget (fst r), snd r) = (true, 9%nat)) /\
  (let r := exec_depth 50 {| e_ftab := ftab_f; e_cfg := e_cfg (env_lim 500) |}
                       (mach [I OpPushFunc (OFn 0%N); I OpInvoke (OInt 0)] w_start) in
   (is_budget (fst r), snd r) = (true, 4%nat)).
Proof. vm_compute. repeat split; reflexivity. Qed.

(* the state after `x = &x` (no limit), with the counter put back to c *)
Definition w_x (c : Z) : world :=
  match exec 10 (env_rec 0) (mach [I OpPushComputed (OFn 0%N); I OpStore (OStr "x")] w_start) with
  | Fin m' => w_set_self_ops (m_w m') c
  | _ => w_start
  end.

(* (L - c0) / 101 is attained (C07_call_depth_exact is tight): limit 202, counter 0, code `x`: sub-VMs start at
   101 and 202; under limit 201 the second one is refused *)
Example C07_call_depth_tight :
  let m := mach [I OpLd (OStr "x")] (w_x 0) in
  chain_in_budget 201 (m_w m) /\ chain_in_budget 202 (m_w m) /\
  snd (exec_depth 50 (env_rec 202) m) = 2%nat /\ 202 / 101 = 2 /\
  snd (exec_depth 50 (env_rec 201) m) = 1%nat /\ 201 / 101 = 1.
Proof.
  split; [apply chain_in_budgetb_ok; vm_compute; reflexivity|].
  split; [apply chain_in_budgetb_ok; vm_compute; reflexivity|vm_compute; repeat split; reflexivity].
Qed.

(* the "+ 1" of C07_call_depth_bounded is attained on a chain that is int64 but not within the budget: a calling
   context whose counter is MaxInt64 holds x; under limit 50 (50 / 101 = 0) the evaluation of x for that context
   starts a sub-VM on the wrapped counter MinInt64 + 99; it fails at once *)
Definition w_up (c up : Z) : world :=
  let w := w_x c in
  let '(id, h) := alloc_map [] (w_heap w) in
  {| w_heap := h; w_pcg := w_pcg w; w_st := [];
     w_chain := [{| c_attrs := id; c_ops := c |}; {| c_attrs := c_attrs (w_self w); c_ops := up |}] |}.
Example C07_call_depth_wrapped_level :
  let m := mach [I OpLd (OStr "x")] (w_up 0 MaxInt64) in
  chain_i64 (m_w m) /\ (let r := exec_depth 50 (env_rec 50) m in (is_budget (fst r), snd r) = (true, 1%nat)).
Proof. split; [apply chain_i64b_ok; vm_compute; reflexivity|vm_compute; reflexivity]. Qed.

(* the hypothesis chain_i64 is needed: a calling context with the non-int64 counter 2^64 - 93 makes the sub-VM
   start at 7 although the running context is at 990 of 1000: 10 levels instead of at most 10 / 101 + 1 = 1 *)
Example C07_call_depth_needs_int64_chain :
  let m := mach [I OpLd (OStr "x")] (w_up 990 (two64 - 93)) in
  run_pre m /\ snd (exec_depth 50 (env_rec 1000) m) = 10%nat /\ Z.max 0 ((1000 - ops_of (m_w m)) / 101) + 1 = 1.
Proof. split; [apply run_preb_ok; vm_compute; reflexivity|vm_compute; split; reflexivity]. Qed.

Print Assumptions exec_depth_fst.
Print Assumptions C07_call_depth_bounded.
Print Assumptions C07_call_depth_exact.
Print Assumptions C07_call_depth_bounded_100.
Print Assumptions C07_callee_start_counter.
Print Assumptions C07_run_call_depth.

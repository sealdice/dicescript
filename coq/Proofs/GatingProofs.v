(* Soundness of the static flag-gating analysis Model/Gating.v with respect to the
   packrat interpreter Model/Peg.pe:  when `gated` holds, the flag has its blocking value
   and the input does not contain the enabling literal, no opcode of X is ever emitted and
   the flag keeps its blocking value. *)
From Coq Require Import NArith List Bool Lia FMapPositive ZifyBool PeanoNat.
From DS Require Import Model.Peg Model.Gating Proofs.PegStep.
Import ListNotations.
Open Scope N_scope.

Lemma succ_pos_inj : forall a b, N.succ_pos a = N.succ_pos b -> a = b.
Proof.
  intros a b H. apply N.succ_inj. rewrite <- !N.succ_pos_spec. now rewrite H.
Qed.

(* Memo keys are pos * NODES + id: injective for node ids below NODES = 4096.  The translator
   refuses a grammar with more nodes (tools/gen_grammar.py), and `id_ok`, part of `safe`,
   checks the bound for the grammar at hand. *)
Lemma mkey_inj : forall pos id pos' id',
  mkey pos id = mkey pos' id' -> id < NODES -> id' < NODES -> pos = pos' /\ id = id'.
Proof.
  unfold mkey, NODES. intros pos id pos' id' H H1 H2. apply succ_pos_inj in H. lia.
Qed.

Lemma nth_error_skipn : forall (A : Type) (l : list A) k c,
  nth_error l k = Some c -> skipn k l = c :: skipn (S k) l.
Proof.
  induction l as [|x l IH]; intros [|k] c H; simpl in *; try discriminate.
  - now inversion H.
  - now apply IH.
Qed.

Lemma list_eqb_eq : forall a b, list_eqb a b = true -> a = b.
Proof.
  induction a as [|x a IH]; intros [|y b] H; simpl in *; try discriminate; auto.
  destruct (x =? y) eqn:E; try discriminate. apply N.eqb_eq in E. subst. f_equal. auto.
Qed.

Lemma occurs_prefix : forall v bytes, v <> [] -> occurs v bytes = false ->
  forall k, prefix_eqb v (skipn k bytes) = false.
Proof.
  intros v bytes Hv. induction bytes as [|b q IH]; intros H k.
  - destruct k; simpl; (destruct v; [exfalso; now apply Hv | reflexivity]).
  - cbn [occurs] in H. destruct (prefix_eqb v (b :: q)) eqn:E; try discriminate.
    destruct k as [|k]; [exact E|]. simpl. now apply IH.
Qed.

Lemma setf_nth : forall c n m b,
  nth m (setf c n b) false = nth m c false \/ (n = m /\ nth m (setf c n b) false = b).
Proof.
  induction c as [|x c IH]; intros n m b.
  - left. destruct n; reflexivity.
  - destruct n as [|n], m as [|m]; simpl; auto.
    destruct (IH n m b) as [H|[H1 H2]]; auto.
Qed.

Lemma mk_input_find : forall l i m o,
  PositiveMap.find (N.succ_pos o) (mk_input l i m) =
  if o <? i then PositiveMap.find (N.succ_pos o) m
  else match nth_error l (N.to_nat (o - i)) with
       | Some b => Some b
       | None => PositiveMap.find (N.succ_pos o) m
       end.
Proof.
  induction l as [|b r IH]; intros i m o.
  - simpl. destruct (o <? i); auto. destruct (N.to_nat (o - i)); reflexivity.
  - simpl mk_input. rewrite IH.
    destruct (o <? i) eqn:E1.
    + replace (o <? i + 1) with true by lia.
      rewrite PositiveMap.gso; auto. intro H. apply succ_pos_inj in H. lia.
    + destruct (o <? i + 1) eqn:E2.
      * assert (o = i) by lia. subst o. rewrite PositiveMap.gss.
        replace (i - i) with 0 by lia. reflexivity.
      * replace (N.to_nat (o - i)) with (S (N.to_nat (o - (i + 1)))) by lia.
        simpl nth_error. destruct (nth_error r (N.to_nat (o - (i + 1)))); auto.
        rewrite PositiveMap.gso; auto. intro H. apply succ_pos_inj in H. lia.
Qed.

Lemma byte_at_nth : forall bytes o b,
  byte_at (mk_input bytes 0 (PositiveMap.empty _)) (N.of_nat (length bytes)) o = Some b ->
  nth_error bytes (N.to_nat o) = Some b.
Proof.
  intros bytes o b. unfold byte_at. destruct (o <? N.of_nat (length bytes)); try discriminate.
  rewrite mk_input_find. replace (o <? 0) with false by lia.
  replace (o - 0) with o by lia.
  destruct (nth_error bytes (N.to_nat o)); auto. rewrite PositiveMap.gempty. discriminate.
Qed.

Fixpoint refs_ok (n : N) (e : pexpr) : bool :=
  match e with
  | PRef _ r => r <? n
  | PAction _ _ e1 | PLabel _ _ _ e1 | PAnd _ e1 | PNot _ e1 | PAndL _ e1 | PNotL _ e1
  | POpt _ e1 | PStar _ e1 | PPlus _ e1 => refs_ok n e1
  | PSeq _ es | PChoice _ es =>
    (fix all (l : list pexpr) : bool := match l with [] => true | x :: r => refs_ok n x && all r end) es
  | _ => true
  end.
Definition refs_ok_rules (rules : list pexpr) : bool :=
  match rules with [] => false | _ => forallb (refs_ok (N.of_nat (length rules))) rules end.
(* an out-of-range PRef r is interpreted as PAny 0: harmless when node id 0 is not a
   must-fail id; otherwise all references must be in range *)
Definition default_ok (gids : list N) (rules : list pexpr) : bool :=
  negb (mem_N 0 gids) || refs_ok_rules rules.

Lemma refs_ok_rules_inv : forall rules, refs_ok_rules rules = true ->
  rules <> [] /\ forallb (refs_ok (N.of_nat (length rules))) rules = true.
Proof. intros [|r rs] H; [discriminate|]. split; [discriminate|exact H]. Qed.

Section Soundness.
  Variable cmatch : N -> option N.    (* arbitrary registered custom dice parsers *)
  Variable rules : list pexpr.
  Variable classes : list (list (N * N * N)).
  Variable acts : list (list aeff).
  Variable preds : list psum.
  Variable f : N.
  Variable bv : bool.
  Variables X mlit gids U : list N.
  Variable bytes : list N.

  Local Notation input := (mk_input bytes 0 (PositiveMap.empty N)).
  Local Notation ilen := (N.of_nat (length bytes)).
  Local Notation MF := (must_fail preds f bv mlit).
  Local Notation GUARD := (is_guard preds f bv mlit).
  Local Notation IDOK := (id_ok preds f bv mlit gids).
  Local Notation SAFE := (safe acts preds f bv X mlit gids U).
  Local Notation FNBAD := (fn_bad acts f bv X).
  Local Notation PE := (pe input ilen cmatch rules classes acts preds).
  Local Notation READ := (read input ilen).
  Local Notation DEC := (decode input ilen).
  Local Notation nrules := (N.of_nat (length rules)).

  (* a point as `read` leaves it: it carries the rune decoded at its offset and that rune's
     width.  The argument about the absent literal reads input bytes off matched runes with it. *)
  Definition cons_pt (p : pt) : Prop := (rn p, w p) = DEC (off p).

  Definition MemoOK (m : PositiveMap.t (bool * pt)) : Prop :=
    (forall pos id b p, id < NODES -> mem_N id gids = true ->
       PositiveMap.find (mkey pos id) m = Some (b, p) -> b = false) /\
    (forall k b p, PositiveMap.find k m = Some (b, p) -> cons_pt p).

  Definition DI (cf : flags) (fs : list flags) (em : list N) : Prop :=
    getf cf f = bv /\
    Forall (fun c => getf c f = bv) fs /\
    (forall op, In op em -> mem_N op X = false).

  Record InvC (c : pt) (m1 m2 : PositiveMap.t (bool * pt)) (cf : flags) (fs : list flags) (em : list N) : Prop := {
    I_data : DI cf fs em;
    I_memo1 : MemoOK m1;
    I_memo2 : MemoOK m2;
    I_cur : cons_pt c }.

  Arguments I_data {c m1 m2 cf fs em}.

  Definition Inv (s : pst) : Prop :=
    InvC (cur s) (memo1 s) (memo2 s) (cfg s) (fstack s) (emitted s).

  (* Inv in terms of the model alone: this is what pe_preserves and gating_inv rest on *)
  Lemma Inv_spec : forall s, Inv s <->
    ( getf (cfg s) f = bv
    /\ Forall (fun c => getf c f = bv) (fstack s)
    /\ (forall op, In op (emitted s) -> mem_N op X = false)
    /\ (forall m, m = memo1 s \/ m = memo2 s ->
          forall pos id b p, id < NODES -> mem_N id gids = true ->
            PositiveMap.find (mkey pos id) m = Some (b, p) -> b = false)
    /\ ((rn (cur s), w (cur s)) = DEC (off (cur s))
        /\ forall m, m = memo1 s \/ m = memo2 s ->
             forall k b p, PositiveMap.find k m = Some (b, p) -> (rn p, w p) = DEC (off p))).
  Proof.
    intros s. split.
    - intros [(H1 & H2 & H3) [A1 A2] [B1 B2] Hcur]. repeat split; auto.
      + intros m [E|E]; subst; auto.
      + intros m [E|E]; subst; eauto.
    - intros (H1 & H2 & H3 & H4 & H5 & H6). constructor.
      + repeat split; auto.
      + split; [apply H4|apply H6]; auto.
      + split; [apply H4|apply H6]; auto.
      + exact H5.
  Qed.

  Lemma Inv_pointed : pointed input ilen cons_pt InvC.
  Proof.
    split.
    - intros s _. apply read_decode.
    - intros c m1 m2 cf fs em H. apply H.
    - intros c c' m1 m2 cf fs em [Hdata Hmemo1 Hmemo2 _] Hc. constructor; assumption.
  Qed.

  Lemma MemoOK_add : forall m pos id b p,
    MemoOK m -> id < NODES -> (mem_N id gids = true -> b = false) -> cons_pt p ->
    MemoOK (PositiveMap.add (mkey pos id) (b, p) m).
  Proof.
    intros m pos id b p [H1 H2] Hid Hb Hp. split.
    - intros pos' id' b' p' Hlt Hg Hf.
      destruct (Pos.eq_dec (mkey pos' id') (mkey pos id)) as [E|E].
      + rewrite E, PositiveMap.gss in Hf. inversion Hf; subst.
        apply mkey_inj in E; auto. destruct E; subst. auto.
      + rewrite PositiveMap.gso in Hf; eauto.
    - now apply MemoQ_add.
  Qed.

  Lemma Inv_memo_put : forall s pos id b p,
    Inv s -> id < NODES -> (mem_N id gids = true -> b = false) -> cons_pt p ->
    Inv (memo_put s pos id (b, p)).
  Proof.
    intros s pos id b p [Hdata Hmemo1 Hmemo2 Hcur] Hid Hb Hp. unfold memo_put.
    destruct (skip s); constructor; try assumption; apply MemoOK_add; assumption.
  Qed.

  Definition DInv (d : pdata) : Prop := DI (d_cfg d) (d_fstack d) (d_emitted d).

  Lemma getf_setf_ok : forall c n b,
    getf c f = bv -> (n = N.to_nat f -> b = bv) -> getf (setf c n b) f = bv.
  Proof.
    intros c n b H Hn. unfold getf in *.
    destruct (setf_nth c n (N.to_nat f) b) as [E|[E1 E2]]; [rewrite E; auto|rewrite E2; auto].
  Qed.

  Lemma run_effs_ok : forall fuel cid con co l d,
    existsb (eff_bad f bv X) l = false -> DInv d ->
    DInv (run_effs input ilen fuel cid con co l d).
  Proof.
    induction fuel as [|fuel IH]; intros cid con co l d Hl Hd; [exact Hd|].
    destruct l as [|a rest]; [exact Hd|].
    cbn [existsb] in Hl. apply orb_false_iff in Hl. destruct Hl as [Ha Hr].
    destruct Hd as (H1 & H2 & H3).
    (* the effects on the helper stacks and counters, whatever they branch on (a pop of an
       empty stack stops with the data as they are), leave flags, flag stack and opcodes alone;
       the six effects that write them are left *)
    destruct a; cbn [eff_bad] in Ha; cbn [run_effs];
      try (repeat match goal with |- DInv (match ?x with _ => _ end) => destruct x end;
           try (apply IH; [assumption|]); repeat split; assumption).
    - (* AEmit *) apply IH; auto. repeat split; auto. intros op' [E|Hin]; subst; auto.
    - (* ASetFlag *) apply IH; auto. repeat split; auto. cbn.
      apply getf_setf_ok; auto. intros E. assert (f0 = f) by lia. subst f0.
      rewrite N.eqb_refl in Ha. simpl in Ha. apply negb_false_iff in Ha. now apply eqb_prop in Ha.
    - (* AFlagsSwitch sets one of the flags 0..3, and f is none of them *)
      apply IH; auto. repeat split; auto. cbn.
      repeat match goal with |- context [if span_eq ?a ?b cid ?l then _ else _] => destruct (span_eq a b cid l) end;
        auto; apply getf_setf_ok; auto; intros; lia.
    - (* AFlagsPush *) apply IH; auto. repeat split; auto. cbn. constructor; auto.
    - (* AFlagsPop *) destruct (d_fstack d) as [|c r] eqn:E; [repeat split; cbn; try rewrite E; auto|].
      inversion H2; subst. apply IH; auto. repeat split; auto.
    - (* AIfLoop0 *) apply orb_false_iff in Ha. destruct Ha as [Ht He].
      destruct (d_loop d =? 0); apply IH; try (repeat split; assumption);
        rewrite existsb_app, ?Ht, ?He, Hr; reflexivity.
  Qed.

  Lemma Inv_run_action : forall fn s,
    Inv s -> FNBAD fn = false -> Inv (run_action input ilen cmatch acts fn s).
  Proof.
    intros fn s [Hdata Hmemo1 Hmemo2 Hcur] Hb. apply (holds_run_action Inv_pointed). intros fuel.
    constructor; try assumption. exact (run_effs_ok fuel _ _ _ _ (get_data s) Hb Hdata).
  Qed.

  (* a guard predicate compares the flag with the value it does not have; &{..} (neg = false)
     and !{..} guard with opposite values *)
  Lemma guard_code_fails : forall (neg : bool) i fn s b s',
    GUARD (if neg then PNotCode i fn else PAndCode i fn) = true -> Inv s ->
    run_pred input ilen cmatch preds fn s = (b, s') -> (if neg then negb b else b) = false.
  Proof.
    intros neg i fn s b s' Hg Hinv. destruct (I_data Hinv) as [H1 _]. unfold run_pred.
    destruct neg; cbn [is_guard] in Hg;
      (destruct (nth (N.to_nat fn) preds PUnknownP) as [f' v|b' err| |]; try discriminate;
       intros E; injection E as Eb Es; rewrite <- Eb;
       apply andb_true_iff in Hg; destruct Hg as [Hf Hv];
       apply N.eqb_eq in Hf; rewrite Hf, H1;
       revert Hv; generalize bv; intros [|]; destruct v; simpl; auto).
  Qed.

  Lemma match_lit_prefix : forall v s s',
    Forall (fun c => c < 128) v -> cons_pt (cur s) ->
    match_lit input ilen v false s = (true, s') ->
    prefix_eqb v (skipn (N.to_nat (off (cur s))) bytes) = true.
  Proof.
    induction v as [|c r IH]; intros s s' Hv Hc E; [reflexivity|].
    cbn [match_lit] in E. inversion Hv as [|? ? Hc128 Hr]; subst.
    destruct (rn (cur s) =? c) eqn:Ec; [|discriminate]. apply N.eqb_eq in Ec.
    unfold cons_pt in Hc. symmetry in Hc. rewrite Ec in Hc.
    apply decode_spec in Hc. destruct (proj1 Hc Hc128) as [Hb Hw].
    apply byte_at_nth in Hb. rewrite (nth_error_skipn _ _ _ _ Hb).
    cbn [prefix_eqb]. rewrite N.eqb_refl.
    specialize (IH (READ s) s' Hr (read_decode _ _ s) E).
    rewrite read_off, Hw in IH.
    replace (N.to_nat (off (cur s) + 1)) with (S (N.to_nat (off (cur s)))) in IH by lia.
    exact IH.
  Qed.

  Hypothesis Hlit : mlit = [] \/ occurs mlit bytes = false.
  Hypothesis Hascii : Forall (fun c => c < 128) mlit.

  Lemma guard_lit_fails : forall i v ic s ok s',
    GUARD (PLit i v ic) = true -> Inv s -> match_lit input ilen v ic s = (ok, s') -> ok = false.
  Proof.
    intros i v ic s ok s' Hg H E.
    assert (Hx : mlit <> [] /\ (negb ic && list_eqb v mlit) = true).
    { revert Hg. cbn [is_guard]. destruct mlit; [discriminate|].
      intros Hg; split; [discriminate|exact Hg]. }
    destruct Hx as [Hne Hx]. apply andb_true_iff in Hx. destruct Hx as [Hic Hv].
    apply list_eqb_eq in Hv. destruct ic; [discriminate|]. rewrite Hv in E.
    destruct ok; auto. exfalso.
    apply match_lit_prefix in E; auto; [|apply H].
    destruct Hlit as [Hl|Hl]; [contradiction|].
    rewrite occurs_prefix in E; auto; discriminate.
  Qed.

  (* must_fail and safe with their inline loops under names *)
  Fixpoint any_mf (l : list pexpr) : bool :=
    match l with [] => false | x :: r => MF x || any_mf r end.
  Fixpoint all_mf (l : list pexpr) : bool :=
    match l with [] => true | x :: r => MF x && all_mf r end.
  Definition mf_rest (e : pexpr) : bool :=
    match e with
    | PSeq _ es => any_mf es
    | PChoice _ es => all_mf es
    | PAction _ _ e1 | PLabel _ _ _ e1 | PPlus _ e1 => MF e1
    | _ => false
    end.
  Lemma mf_unf : forall e, MF e = GUARD e || mf_rest e.
  Proof. destruct e; try reflexivity. destruct es; reflexivity. Qed.

  Fixpoint safe_seq (l : list pexpr) : bool :=
    match l with [] => true | x :: r => SAFE x && (MF x || safe_seq r) end.
  Fixpoint safe_all (l : list pexpr) : bool :=
    match l with [] => true | x :: r => SAFE x && safe_all r end.
  Definition safe_rest (e : pexpr) : bool :=
    match e with
    | PAction _ fn e1 => SAFE e1 && (MF e1 || negb (FNBAD fn))
    | PCode _ fn _ => negb (FNBAD fn)
    | PSeq _ es => safe_seq es
    | PChoice _ es => safe_all es
    | PLabel _ _ _ e1 | PAnd _ e1 | PNot _ e1 | PAndL _ e1 | PNotL _ e1 | POpt _ e1 | PStar _ e1 | PPlus _ e1 => SAFE e1
    | PRef _ r => negb (mem_N r U)
    | PAndCode _ _ | PNotCode _ _ | PLit _ _ _ | PClass _ _ _ _ _ _ | PAny _ => true
    end.
  Lemma safe_unf : forall e, SAFE e = IDOK e && safe_rest e.
  Proof. destruct e; reflexivity. Qed.

  Lemma id_ok_spec : forall e, IDOK e = true -> node_id e < NODES /\ mem_N (node_id e) gids = MF e.
  Proof.
    intros e H. unfold id_ok in H. apply andb_true_iff in H. destruct H as [H1 H2].
    apply eqb_prop in H2. split; [lia|exact H2].
  Qed.

  (* references are fine: every PRef in e names an existing rule, or node id 0 is no must-fail
     id, so that the PAny 0 an out-of-range reference stands for is harmless (see default_ok) *)
  Definition rok (e : pexpr) : bool := negb (mem_N 0 gids) || refs_ok nrules e.

  (* `rok (PSeq i es)` and `rok (PChoice i es)` both unfold to the premise *)
  Lemma rok_all : forall es, negb (mem_N 0 gids) || forallb (refs_ok nrules) es = true ->
    forall x, In x es -> rok x = true.
  Proof.
    unfold rok. intros es H x Hx. destruct (mem_N 0 gids); [|reflexivity].
    cbn [negb orb] in *. rewrite forallb_forall in H. auto.
  Qed.

  Lemma check_rules_nth : forall rs i k r d,
    check_rules acts preds f bv X mlit gids U i rs = true ->
    (k < length rs)%nat -> i + N.of_nat k = r -> mem_N r U = false ->
    SAFE (nth k rs d) = true.
  Proof.
    induction rs as [|x rs IH]; intros i k r d H Hk Er Hm; simpl in Hk; [lia|].
    cbn [check_rules] in H. apply andb_true_iff in H. destruct H as [H1 H2].
    destruct k as [|k].
    - replace i with r in H1 by lia. rewrite Hm in H1. exact H1.
    - cbn [nth]. apply (IH (i + 1) k r d); auto; lia.
  Qed.

  Hypothesis Hgated : gated acts preds f bv X mlit gids rules U = true.
  Hypothesis Hrefs : default_ok gids rules = true.

  Lemma refs_in_range : mem_N 0 gids = true -> rules <> [] /\ forallb (refs_ok nrules) rules = true.
  Proof.
    intros H0. pose proof Hrefs as Hd. unfold default_ok in Hd. rewrite H0 in Hd.
    now apply refs_ok_rules_inv.
  Qed.

  Lemma rule_ok : forall i r, mem_N r U = false -> rok (PRef i r) = true ->
    SAFE (nth (N.to_nat r) rules (PAny 0)) = true /\ rok (nth (N.to_nat r) rules (PAny 0)) = true.
  Proof.
    intros i r Hr Hk. unfold rok in *. cbn [refs_ok] in Hk.
    destruct (Nat.lt_ge_cases (N.to_nat r) (length rules)) as [Hlt|Hge].
    - split.
      + pose proof Hgated as Hg. apply andb_true_iff in Hg.
        apply (check_rules_nth rules 0 _ r); [apply Hg|exact Hlt| |exact Hr]. clear - r. lia.
      + destruct (mem_N 0 gids) eqn:E0; [|reflexivity].
        destruct (refs_in_range E0) as [_ Hall].
        rewrite forallb_forall in Hall. apply Hall. now apply nth_In.
    - rewrite nth_overflow by exact Hge.
      assert (Hc : mem_N 0 gids = false).
      { destruct (mem_N 0 gids); [|reflexivity]. cbn [negb orb] in Hk. clear - Hk Hge. lia. }
      rewrite safe_unf. unfold id_ok. cbn [node_id safe_rest refs_ok]. rewrite Hc. split; reflexivity.
  Qed.

  Lemma start_ok :
    SAFE (nth 0 rules (PAny 0)) = true /\ rok (nth 0 rules (PAny 0)) = true.
  Proof.
    apply (rule_ok 0 0).
    - pose proof Hgated as Hg. apply andb_true_iff in Hg. destruct Hg as [H0 _].
      now apply negb_true_iff in H0.
    - unfold rok. cbn [refs_ok]. destruct (mem_N 0 gids) eqn:E0; [|reflexivity].
      destruct (refs_in_range E0) as [Hne _]. destruct rules; [contradiction|reflexivity].
  Qed.

  Section Step.
    Variable P : pexpr -> pst -> bool * pst.
    Hypothesis IHP : forall e s ok s',
      SAFE e = true -> rok e = true -> Inv s -> P e s = (ok, s') ->
      Inv s' /\ (MF e = true -> ok = false).

    Lemma seq_go_ok : forall start l st ok st',
      cons_pt start -> safe_seq l = true -> (forall x, In x l -> rok x = true) -> Inv st ->
      seq_go P start l st = (ok, st') -> Inv st' /\ (any_mf l = true -> ok = false).
    Proof.
      intros start. induction l as [|x r IH]; intros st ok st' Hs Hsafe Hrok Hinv Hgo; cbn [seq_go] in Hgo.
      - injection Hgo as E1 E2. rewrite <- E2. split; auto. cbn. discriminate.
      - destruct (P x st) as [ok1 st1] eqn:E1.
        cbn [safe_seq] in Hsafe. apply andb_true_iff in Hsafe. destruct Hsafe as [Hx Hr].
        destruct (IHP _ _ _ _ Hx (Hrok x (or_introl eq_refl)) Hinv E1) as [Hi1 Hm1].
        destruct ok1.
        + destruct (MF x) eqn:Em; [specialize (Hm1 eq_refl); discriminate|]. cbn [orb] in Hr.
          destruct (IH st1 ok st' Hs Hr (fun y Hy => Hrok y (or_intror Hy)) Hi1 Hgo) as [A B].
          split; auto. cbn [any_mf]. rewrite Em. exact B.
        + injection Hgo as E2 E3. rewrite <- E2, <- E3. split; auto.
          now apply (holds_restore Inv_pointed).
    Qed.

    Lemma choice_go_ok : forall l st ok st',
      safe_all l = true -> (forall x, In x l -> rok x = true) -> Inv st ->
      choice_go P l st = (ok, st') -> Inv st' /\ (all_mf l = true -> ok = false).
    Proof.
      induction l as [|x r IH]; intros st ok st' Hsafe Hrok Hinv Hgo; cbn [choice_go] in Hgo.
      - injection Hgo as E1 E2. rewrite <- E1, <- E2. split; auto.
      - destruct (P x st) as [ok1 st1] eqn:E1.
        cbn [safe_all] in Hsafe. apply andb_true_iff in Hsafe. destruct Hsafe as [Hx Hr].
        destruct (IHP _ _ _ _ Hx (Hrok x (or_introl eq_refl)) Hinv E1) as [Hi1 Hm1].
        destruct ok1.
        + injection Hgo as E2 E3. rewrite <- E2, <- E3. split; auto.
          cbn [all_mf]. intros Hm. apply andb_true_iff in Hm. destruct Hm as [Hm _].
          specialize (Hm1 Hm). discriminate.
        + destruct (IH st1 ok st' Hr (fun y Hy => Hrok y (or_intror Hy)) Hi1 Hgo) as [A B].
          split; auto. cbn [all_mf]. intros Hm. apply andb_true_iff in Hm. destruct Hm as [_ Hm]. auto.
    Qed.

    Lemma IHP_inv : forall e1, SAFE e1 = true -> rok e1 = true ->
      forall s ok s', Inv s -> P e1 s = (ok, s') -> Inv s'.
    Proof. intros e1 Hs Hr s ok s' H E. exact (proj1 (IHP _ _ _ _ Hs Hr H E)). Qed.

    Lemma step_ok : forall fuel e s ok s1,
      SAFE e = true -> rok e = true -> Inv s ->
      step input ilen cmatch rules classes acts preds P fuel e s = (ok, s1) ->
      Inv s1 /\ (MF e = true -> ok = false).
    Proof.
      intros fuel e s ok s1 Hsafe Hrok Hinv Hstep.
      rewrite safe_unf in Hsafe. apply andb_true_iff in Hsafe. destruct Hsafe as [_ Hrest].
      rewrite mf_unf.
      destruct e; cbn [step] in Hstep; cbn [safe_rest] in Hrest; cbn [mf_rest is_guard orb].
      (* PAnd, PNot, PAndL, PNotL step by `look`, PClass and PAny by `eat`; none of them must-fail *)
      all: try (lazymatch type of Hstep with look _ _ _ _ _ = _ =>
                  split; [exact (holds_look Inv_pointed P _ (IHP_inv _ Hrest Hrok) _ _ _ _ _ Hinv Hstep)|discriminate] end).
      all: try (lazymatch type of Hstep with eat _ _ _ _ = _ =>
                  split; [exact (holds_eat Inv_pointed _ _ _ _ Hinv Hstep)|discriminate] end).
      - (* PAction *)
        apply andb_true_iff in Hrest. destruct Hrest as [Hs1 Hfn].
        destruct (skip s); [eapply IHP; eauto|].
        destruct (P e s) as [ok1 s'] eqn:E1.
        destruct (IHP _ _ _ _ Hs1 Hrok Hinv E1) as [Hi1 Hm1].
        destruct ok1; injection Hstep as E2 E3; rewrite <- E2, <- E3; [|split; auto].
        destruct (MF e) eqn:Em; [specialize (Hm1 eq_refl); discriminate|]. cbn [orb] in Hfn.
        split; [|discriminate]. apply Inv_run_action; auto. now apply negb_true_iff in Hfn.
      - (* PSeq *)
        exact (seq_go_ok _ _ _ _ _ (holds_cur Inv_pointed s Hinv) Hrest (rok_all es Hrok) Hinv Hstep).
      - (* PChoice *)
        exact (choice_go_ok _ _ _ _ Hrest (rok_all es Hrok) Hinv Hstep).
      - (* PLabel *)
        cbv zeta in Hstep.
        destruct (P e s) as [ok1 s'] eqn:E1.
        destruct (IHP _ _ _ _ Hrest Hrok Hinv E1) as [Hi1 Hm1].
        destruct ok1.
        + split; [|intros Hm; specialize (Hm1 Hm); discriminate].
          destruct (skip s'); [|destruct (label =? 1); [|destruct (label =? 2)]];
            injection Hstep as E2 E3; rewrite <- E3; exact Hi1.
        + injection Hstep as E2 E3; rewrite <- E2, <- E3. auto.
      - (* POpt *)
        split; [|discriminate].
        destruct (P e s) as [ok1 s'] eqn:E1.
        destruct (IHP _ _ _ _ Hrest Hrok Hinv E1) as [Hi1 _].
        injection Hstep as E2 E3; now rewrite <- E3.
      - (* PStar *)
        split; [exact (holds_star_loop P _ (IHP_inv _ Hrest Hrok) _ _ _ _ Hinv Hstep)|discriminate].
      - (* PPlus *)
        destruct (P e s) as [ok1 s'] eqn:E1.
        destruct (IHP _ _ _ _ Hrest Hrok Hinv E1) as [Hi1 Hm1].
        destruct ok1.
        + split; [exact (holds_star_loop P _ (IHP_inv _ Hrest Hrok) _ _ _ _ Hi1 Hstep)|].
          intros Hm. specialize (Hm1 Hm). discriminate.
        + injection Hstep as E2 E3; rewrite <- E2, <- E3. auto.
      - (* PRef *)
        apply negb_true_iff in Hrest.
        destruct (rule_ok id r Hrest Hrok) as [A B].
        destruct (IHP _ _ _ _ A B Hinv Hstep) as [Hi1 _]. split; [auto|discriminate].
      - (* PAndCode *)
        split; [exact (holds_run_pred Inv_pointed _ _ _ _ _ _ Hinv Hstep)|]. rewrite orb_false_r. intros Hg.
        exact (guard_code_fails false id _ _ _ _ Hg Hinv Hstep).
      - (* PNotCode *)
        destruct (run_pred input ilen cmatch preds fn s) as [b s'] eqn:E1.
        injection Hstep as E2 E3; rewrite <- E2, <- E3.
        split; [exact (holds_run_pred Inv_pointed _ _ _ _ _ _ Hinv E1)|]. rewrite orb_false_r. intros Hg.
        exact (guard_code_fails true id _ _ _ _ Hg Hinv E1).
      - (* PCode *)
        split; [|discriminate]. apply negb_true_iff in Hrest.
        destruct (if notskip then false else skip s); injection Hstep as E2 E3; rewrite <- E3; auto.
        now apply Inv_run_action.
      - (* PLit *)
        cbv zeta in Hstep.
        destruct (match_lit input ilen v ic s) as [ok1 s'] eqn:E1.
        pose proof (holds_match_lit Inv_pointed _ _ _ _ _ Hinv E1) as Hi1.
        apply (holds_fail_at ok1 (cur s)) in Hi1.
        rewrite orb_false_r.
        destruct ok1; injection Hstep as E2 E3; rewrite <- E2, <- E3.
        + split; [exact Hi1|]. intros Hg.
          pose proof (guard_lit_fails id _ _ _ _ _ Hg Hinv E1). discriminate.
        + split; auto. apply (holds_restore Inv_pointed); [exact Hi1|apply Hinv].
    Qed.
  End Step.

  Lemma pe_ok : forall fuel e s ok s',
    SAFE e = true -> rok e = true -> Inv s -> PE fuel e s = (ok, s') ->
    Inv s' /\ (MF e = true -> ok = false).
  Proof.
    induction fuel as [|fuel IH]; intros e s ok s' Hsafe Hrok Hinv Hpe.
    - cbn [pe] in Hpe. injection Hpe as E1 E2. rewrite <- E1, <- E2. split; auto.
    - rewrite pe_S in Hpe. unfold pe_body in Hpe. cbv zeta in Hpe.
      assert (Ht : Inv (tick s)) by exact Hinv.
      assert (Hid : IDOK e = true).
      { rewrite safe_unf in Hsafe. apply andb_true_iff in Hsafe. apply Hsafe. }
      apply id_ok_spec in Hid. destruct Hid as [Hlt Hg].
      destruct (memo_get (tick s) (node_id e)) as [[b p]|] eqn:Em.
      + injection Hpe as E1 E2. rewrite <- E1, <- E2. unfold memo_get in Em.
        assert (HM : MemoOK (if skip (tick s) then memo2 (tick s) else memo1 (tick s))).
        { destruct (skip (tick s)); apply Ht. }
        destruct HM as [HM1 HM2]. split.
        * apply (holds_restore Inv_pointed); eauto.
        * intros Hm. rewrite <- Hg in Hm. eapply HM1; eauto.
      + destruct (step input ilen cmatch rules classes acts preds (PE fuel) fuel e (tick s)) as [ok1 s1] eqn:Es.
        injection Hpe as E1 E2. rewrite <- E1, <- E2.
        destruct (step_ok (PE fuel) IH fuel e (tick s) ok1 s1 Hsafe Hrok Ht Es) as [A B].
        split; auto. apply Inv_memo_put; [exact A|exact Hlt| |apply A].
        intros Hm. apply B. now rewrite <- Hg.
  Qed.

  Lemma Inv_init : forall fl, getf fl f = bv -> Inv (READ (init_pst fl)).
  Proof.
    intros fl Hfl. apply (holds_read_from (Q := cons_pt)); [|apply read_decode].
    intros c Hc. repeat split; cbn; auto; intros; try rewrite PositiveMap.gempty in *; try discriminate.
    contradiction.
  Qed.

  Theorem pe_preserves : forall fuel e s,
    SAFE e = true -> rok e = true -> Inv s ->
    let '(ok, s') := PE fuel e s in
    Inv s' /\ (MF e = true -> ok = false).
  Proof.
    intros fuel e s Hsafe Hrok Hinv. destruct (PE fuel e s) as [ok s'] eqn:E.
    exact (pe_ok _ _ _ _ _ Hsafe Hrok Hinv E).
  Qed.

  Theorem gating_inv : forall fl fuel, getf fl f = bv ->
    let r := parse_custom cmatch rules classes acts preds fuel fl bytes in
    getf (r_cfg r) f = bv /\ (forall op, In op (r_emitted r) -> mem_N op X = false).
  Proof.
    intros fl fuel Hfl. unfold parse_custom. cbv zeta.
    destruct start_ok as [A B].
    destruct (PE fuel (nth 0 rules (PAny 0)) (READ (init_pst fl))) as [ok s1] eqn:E.
    destruct (pe_ok _ _ _ _ _ A B (Inv_init fl Hfl) E) as [Hi _].
    destruct (I_data Hi) as (H1 & _ & H3). cbn [r_cfg r_emitted]. split; assumption.
  Qed.
End Soundness.

(* no custom dice registered: parse = parse_custom (fun _ => None) *)
Theorem gating_sound : forall rules classes acts preds f bv X mlit gids U bytes fl,
  gated acts preds f bv X mlit gids rules U = true ->
  (mlit = [] \/ occurs mlit bytes = false) ->
  Forall (fun c => c < 128) mlit ->
  default_ok gids rules = true ->
  getf fl f = bv ->
  forall fuel op, mem_N op X = true ->
  ~ In op (r_emitted (parse rules classes acts preds fuel fl bytes)).
Proof.
  intros rules classes acts preds f bv X mlit gids U bytes fl Hg Hl Ha Hd Hfl fuel op Hop Hin.
  apply (gating_inv (fun _ => None) _ _ _ _ _ _ _ _ _ _ _ Hl Ha Hg Hd fl fuel Hfl) in Hin. congruence.
Qed.

(* C17: the parse depends on the custom dice parsers only through what they answer at each
   offset; in particular parsers that never match are transparent *)
Section CustomExt.
  Variable input : PositiveMap.t N.
  Variable ilen : N.
  Variables cm1 cm2 : N -> option N.
  Variable rules : list pexpr.
  Variable classes : list (list (N * N * N)).
  Variable acts : list (list aeff).
  Variable preds : list psum.
  Hypothesis Hext : forall o, cm1 o = cm2 o.

  Lemma custom_consume_ext : forall s, custom_consume input ilen cm1 s = custom_consume input ilen cm2 s.
  Proof. intros s. unfold custom_consume. now rewrite Hext. Qed.

  Lemma run_pred_ext : forall fn s,
    run_pred input ilen cm1 preds fn s = run_pred input ilen cm2 preds fn s.
  Proof.
    intros fn s. unfold run_pred. destruct (nth (N.to_nat fn) preds PUnknownP); auto.
    now rewrite Hext, custom_consume_ext.
  Qed.

  Lemma run_action_ext : forall fn s,
    run_action input ilen cm1 acts fn s = run_action input ilen cm2 acts fn s.
  Proof.
    intros fn s. destruct (run_action_eq input ilen) as [fuel E]. rewrite !E. cbv zeta.
    destruct (has_consume _); [apply custom_consume_ext|reflexivity].
  Qed.

  Section Ext.
    Variables P Q : pexpr -> pst -> bool * pst.
    Hypothesis HPQ : forall e s, P e s = Q e s.

    Lemma seq_go_ext : forall start l st, seq_go P start l st = seq_go Q start l st.
    Proof.
      intros start. induction l as [|x r IH]; intros st; cbn [seq_go]; auto.
      rewrite HPQ. destruct (Q x st) as [[|] st1]; auto.
    Qed.
    Lemma choice_go_ext : forall l st, choice_go P l st = choice_go Q l st.
    Proof.
      induction l as [|x r IH]; intros st; cbn [choice_go]; auto.
      rewrite HPQ. destruct (Q x st) as [[|] st1]; auto.
    Qed.
    Lemma star_loop_ext : forall e1 k st, star_loop P e1 k st = star_loop Q e1 k st.
    Proof.
      intros e1. induction k as [|k IH]; intros st; cbn [star_loop]; auto.
      rewrite HPQ. destruct (Q e1 st) as [[|] st1]; auto.
    Qed.

    Lemma step_ext : forall fuel e s,
      step input ilen cm1 rules classes acts preds P fuel e s =
      step input ilen cm2 rules classes acts preds Q fuel e s.
    Proof.
      intros fuel e s. destruct e; cbn [step]; unfold look; cbv zeta;
        rewrite ?HPQ, ?run_pred_ext, ?run_action_ext;
        auto using seq_go_ext, choice_go_ext, star_loop_ext.
      - (* PAction *) destruct (skip s); auto. destruct (Q e s) as [[|] s1]; auto.
        now rewrite run_action_ext.
      - (* PPlus *) destruct (Q e s) as [[|] s1]; auto using star_loop_ext.
    Qed.
  End Ext.

  Theorem pe_cmatch_ext : forall fuel e s,
    pe input ilen cm1 rules classes acts preds fuel e s =
    pe input ilen cm2 rules classes acts preds fuel e s.
  Proof.
    induction fuel as [|fuel IH]; intros e s; [reflexivity|].
    rewrite !pe_S. unfold pe_body. now rewrite (step_ext _ _ IH).
  Qed.
End CustomExt.

Section Transparent.
  Variable input : PositiveMap.t N.
  Variable ilen : N.
  Variable cmatch : N -> option N.
  Variable rules : list pexpr.
  Variable classes : list (list (N * N * N)).
  Variable acts : list (list aeff).
  Variable preds : list psum.
  Hypothesis Hnone : forall o, cmatch o = None.

  Theorem never_matching_custom_transparent : forall fuel e s,
    pe input ilen cmatch rules classes acts preds fuel e s =
    pe input ilen (fun _ => None) rules classes acts preds fuel e s.
  Proof. apply pe_cmatch_ext, Hnone. Qed.
End Transparent.

Theorem never_matching_custom_parse : forall cmatch rules classes acts preds fuel fl bytes,
  (forall o, cmatch o = None) ->
  parse_custom cmatch rules classes acts preds fuel fl bytes = parse rules classes acts preds fuel fl bytes.
Proof.
  intros cmatch rules classes acts preds fuel fl bytes H. unfold parse, parse_custom. cbv zeta.
  now rewrite (never_matching_custom_transparent _ _ cmatch rules classes acts preds H).
Qed.

Lemma default_ok_refs : forall gids rules, refs_ok_rules rules = true -> default_ok gids rules = true.
Proof. intros gids rules H. unfold default_ok. rewrite H. apply orb_true_r. Qed.
Lemma default_ok_id0 : forall gids rules, mem_N 0 gids = false -> default_ok gids rules = true.
Proof. intros gids rules H. unfold default_ok. rewrite H. reflexivity. Qed.

Check Inv_spec.
Check pe_preserves.
Print Assumptions pe_preserves.
Print Assumptions gating_sound.
Print Assumptions never_matching_custom_transparent.
Print Assumptions never_matching_custom_parse.

(* non-vacuity: a tiny grammar *)
Module Example.
  (* flag 4 with blocking value true; predicate 0 is "flag 4 == false" *)
  Definition ex_preds : list psum := [PFlag 4 false].
  (* action 0 emits opcode 7 (forbidden), action 1 emits opcode 3 (free) *)
  Definition ex_acts : list (list aeff) := [[AEmit 7]; [AEmit 3]].
  Definition ex_mlit : list N := [35; 69].          (* "#E" *)
  Definition ex_rules : list pexpr :=
    [ PChoice 0 [PRef 1 1; PRef 15 4; PRef 2 2];
      (* emits 7, behind the flag guard; rule 3 is only reachable behind the guard *)
      PAction 3 0 (PSeq 4 [PAndCode 5 0; PRef 10 3]);
      (* free action *)
      PAction 7 1 (PLit 8 [97] false);
      (* unguarded code block emitting 7: must be in U *)
      PCode 9 0 true;
      (* emits 7 behind the literal "#E" *)
      PSeq 12 [PLit 13 [35; 69] false; PCode 14 0 true] ].
  Definition ex_gids : list N := flat_map (guard_ids ex_preds 4 true ex_mlit) ex_rules.
  Definition ex_U : list N := compute_U ex_acts ex_preds 4 true [7] ex_mlit ex_gids 10 ex_rules [].

  Example ex_gids_val : ex_gids = [3; 4; 5; 12; 13].
  Proof. vm_compute. reflexivity. Qed.
  Example ex_U_val : ex_U = [3].
  Proof. vm_compute. reflexivity. Qed.

  Example ex_gated : gated ex_acts ex_preds 4 true [7] ex_mlit ex_gids ex_rules ex_U = true.
  Proof. vm_compute. reflexivity. Qed.

  Example ex_sound : forall bytes fl fuel,
    occurs ex_mlit bytes = false -> getf fl 4 = true ->
    ~ In 7 (r_emitted (parse ex_rules [] ex_acts ex_preds fuel fl bytes)) /\
    getf (r_cfg (parse ex_rules [] ex_acts ex_preds fuel fl bytes)) 4 = true.
  Proof.
    intros bytes fl fuel Hocc Hfl.
    assert (Ha : Forall (fun c => c < 128) ex_mlit) by (repeat constructor).
    assert (Hd : default_ok ex_gids ex_rules = true) by (vm_compute; reflexivity).
    destruct (gating_inv (fun _ => None) ex_rules [] ex_acts ex_preds 4 true [7] ex_mlit ex_gids ex_U bytes
                (or_intror Hocc) Ha ex_gated Hd fl fuel Hfl) as [Hc He].
    split; [|exact Hc]. intros Hin. apply He in Hin. discriminate.
  Qed.

  Example ex_sound_custom : forall cmatch bytes fl fuel,
    occurs ex_mlit bytes = false -> getf fl 4 = true ->
    ~ In 7 (r_emitted (parse_custom cmatch ex_rules [] ex_acts ex_preds fuel fl bytes)).
  Proof.
    intros cmatch bytes fl fuel Hocc Hfl.
    assert (Ha : Forall (fun c => c < 128) ex_mlit) by (repeat constructor).
    assert (Hd : default_ok ex_gids ex_rules = true) by (vm_compute; reflexivity).
    intros Hin.
    apply (gating_inv cmatch ex_rules [] ex_acts ex_preds 4 true [7] ex_mlit ex_gids ex_U bytes
             (or_intror Hocc) Ha ex_gated Hd fl fuel Hfl) in Hin. discriminate.
  Qed.

  (* the hypotheses matter: with the flag at its non-blocking value, or with the literal
     present, the model does emit opcode 7; under the hypotheses the free action still runs *)
  Definition fl_block : flags := [false; false; false; false; true; false; false].
  Definition fl_open : flags := [false; false; false; false; false; false; false].
  Example ex_run_open : r_emitted (parse ex_rules [] ex_acts ex_preds 20 fl_open [97]) = [7; 7].
  Proof. vm_compute. reflexivity. Qed.
  Example ex_run_lit : r_emitted (parse ex_rules [] ex_acts ex_preds 20 fl_block [35; 69]) = [7].
  Proof. vm_compute. reflexivity. Qed.
  Example ex_run_block : r_emitted (parse ex_rules [] ex_acts ex_preds 20 fl_block [97]) = [3].
  Proof. vm_compute. reflexivity. Qed.

  (* the same grammar without the flag guard is rejected, whatever U is *)
  Definition bad_rules : list pexpr :=
    [ PChoice 0 [PRef 1 1; PRef 15 4; PRef 2 2];
      PAction 3 0 (PSeq 4 [PRef 10 3]);
      PAction 7 1 (PLit 8 [97] false);
      PCode 9 0 true;
      PSeq 12 [PLit 13 [35; 69] false; PCode 14 0 true] ].
  Definition bad_gids : list N := flat_map (guard_ids ex_preds 4 true ex_mlit) bad_rules.
  Example bad_not_gated_computed :
    gated ex_acts ex_preds 4 true [7] ex_mlit bad_gids bad_rules
          (compute_U ex_acts ex_preds 4 true [7] ex_mlit bad_gids 10 bad_rules []) = false.
  Proof. vm_compute. reflexivity. Qed.
  Example bad_not_gated : forall U,
    gated ex_acts ex_preds 4 true [7] ex_mlit bad_gids bad_rules U = false.
  Proof.
    intros U. unfold gated. destruct (mem_N 0 U) eqn:E0; [reflexivity|].
    cbn [negb andb]. unfold bad_rules. cbn [check_rules]. rewrite E0.
    change (0 + 1) with 1. destruct (mem_N 1 U) eqn:E1.
    - (* rule 0 refers to rule 1, which is in U *)
      vm_compute (bad_gids). cbn. rewrite E1. reflexivity.
    - (* rule 1 itself is unsafe *)
      match goal with |- ?a && (?b && _) = false => replace b with false; [apply andb_false_r|] end.
      vm_compute (bad_gids). cbn. destruct (mem_N 3 U); reflexivity.
  Qed.
End Example.

(* C11: when a step of VM i changes only VM i's own state, the state VM i reaches under any
   interleaving is that of its own steps run alone: induction on the schedule. *)
From Coq Require Import NArith List Bool String Arith Lia.
From DS Require Import Model.Conc.
Import ListNotations.

Section Sched.
  Variable G : Type.
  Variable S : Type.
  Variable step : nat -> G -> S -> S.

  Theorem schedule_independent (g : G) (sched : list nat) : forall (st : nat -> S) (i : nat),
    run_sched G S step g sched st i = iter S (count i sched) (step i g) (st i).
  Proof.
    induction sched as [|j r IH]; intros st i; [reflexivity|].
    cbn [run_sched]. rewrite IH. unfold upd, count. cbn [List.filter].
    destruct (Nat.eqb_spec i j) as [->|Hne]; reflexivity.
  Qed.

  Corollary same_count_same_result (g : G) (s1 s2 : list nat) (st : nat -> S) (i : nat) :
    count i s1 = count i s2 -> run_sched G S step g s1 st i = run_sched G S step g s2 st i.
  Proof. intros H. rewrite !schedule_independent, H. reflexivity. Qed.
End Sched.

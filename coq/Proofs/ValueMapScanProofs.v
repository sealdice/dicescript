(* Range / Length of valuemap.go under concurrency (Model/ValueMapScan.v): they are not atomic
   snapshots (a concrete schedule, checked by computation); the contract that every schedule
   does guarantee; exactness once quiescent. *)
From stdpp Require Import gmap sorting.
From Coq Require Import NArith Lia.
From DS Require Import Model.ValueMap Proofs.ValueMapProofs.
From DS Require Import Model.ValueMapConc Proofs.ValueMapConcLin
  Proofs.ValueMapConcInv Proofs.ValueMapConcPrims Proofs.ValueMapConcProofs Model.ValueMapScan.

Local Open Scope N_scope.

(* name clashes between the sequential and the concurrent development *)
Local Notation Inv := ValueMapConcInv.Inv.
Local Notation abs_lookup := ValueMapConcInv.abs_lookup.

Lemma abs_of_lookup s k : abs_of s !! k = abs_lookup s k.
Proof.
  unfold abs_of, abs_lookup, dget. rewrite lookup_omap.
  destruct (s_rd s !! k) as [e|] eqn:Hr.
  - by erewrite lookup_union_Some_l.
  - rewrite lookup_union_r by done. destruct (s_am s); [|by rewrite lookup_empty].
    destruct (s_dirty s) as [d|]; simpl; [|by rewrite lookup_empty].
    by destruct (d !! k).
Qed.

Lemma abs_of_lin c g : Inv c g -> g_abs (g_l g) = abs_of (c_sh c).
Proof. intros Hi. apply map_eq. intros k. by rewrite abs_of_lookup, (i_abs _ _ Hi). Qed.

Lemma srun_app x ws1 ws2 : srun x (ws1 ++ ws2) = srun (srun x ws1) ws2.
Proof. unfold srun. by rewrite fold_left_app. Qed.

Lemma strace_snoc x ws w : strace x (ws ++ [w]) = strace x ws ++ [sstep1 (srun x ws) w].
Proof.
  revert x. induction ws as [|w0 ws IH]; intros x; simpl; [done|].
  by rewrite IH.
Qed.

Lemma srun_in_strace x ws : srun x ws ∈ strace x ws.
Proof.
  revert x. induction ws as [|w0 ws IH]; intros x; simpl.
  - apply elem_of_list_here.
  - apply elem_of_list_further, IH.
Qed.

Lemma strace_last x ws : last (strace x ws) = Some (srun x ws).
Proof.
  revert x. induction ws as [|w0 ws IH]; intros x; [done|].
  simpl. specialize (IH (sstep1 x w0)).
  destruct (strace (sstep1 x w0) ws) eqn:E; [by destruct ws|]. exact IH.
Qed.

Lemma sstep1_sid x w : sc_sid (sstep1 x w) = sc_sid x.
Proof. destruct w; simpl; [done|]. by destruct (scstep _ _ _). Qed.

Lemma sstep1_th_pc x t : sc_pc (sstep1 x (Th t)) = sc_pc x.
Proof. done. Qed.

Definition nonempty_during (tr : list sconf) : bool :=
  forallb (fun x => sc_idle (sc_pc x) || negb (bool_decide (contents x = []))) tr.

Lemma nonempty_during_spec tr :
  nonempty_during tr = true ->
  forall x, x ∈ tr -> sc_pc x <> ScIdle -> abs_of (sc_sh x) <> ∅.
Proof.
  unfold nonempty_during. rewrite forallb_forall. intros Hall x Hx Hpc Hemp.
  specialize (Hall x (proj1 (elem_of_list_In _ _) Hx)).
  apply orb_true_iff in Hall as [Hi|Hn].
  - by destruct (sc_pc x).
  - apply negb_true_iff, bool_decide_eq_false in Hn. apply Hn.
    unfold contents. rewrite Hemp. apply map_to_list_empty.
Qed.

Example demo_trace :
  map (fun x => (sc_idle (sc_pc x), contents x)) (strace (sinit demo_threads) demo_sched)
  = repeat (true, []) 4 ++ repeat (true, [(1, 1)]) 3          (* Store(1,1) by thread 0 *)
    ++ repeat (false, [(1, 1)]) 5                               (* scan: invoke .. table {1} taken *)
    ++ repeat (false, [(1, 1)]) 3 ++ repeat (false, [(1, 1); (2, 3)]) 6   (* Store(2,3) *)
    ++ repeat (false, [(2, 3)]) 2                               (* LoadAndDelete(1) took effect *)
    ++ repeat (false, [(2, 3)]) 2.                              (* scan: load cell of key 1, return *)
Proof. vm_compute. reflexivity. Qed.

Example demo_history :
  history_of (sc_c (srun (sinit demo_threads) demo_sched))
  = [EInv 0 (CStore 1 1); ERet 0 RNone; EInv 1 (CStore 2 3); ERet 1 RNone;
     EInv 1 (CLoadAndDelete 1); ERet 1 (ROpt (Some 1))].
Proof. vm_compute. reflexivity. Qed.

(* A schedule in which the map is never empty between the invocation and the response of the
   scan, and yet Range visits nothing and Length returns 0.  No atomic-snapshot specification
   (ORange / OLength of Model/ValueMap.v, which answer with the contents at ONE instant) allows
   this: at every instant the contents were [(1,1)], [(1,1);(2,3)] or [(2,3)]. *)
Theorem range_not_atomic_snapshot :
  exists (threads : list (list cop)) (sched : list who),
    let tr := strace (sinit threads) sched in
    let fin := srun (sinit threads) sched in
    last tr = Some fin /\
    (* the scan was invoked and has returned, with nothing visited / count 0 *)
    range_result fin = Some [] /\ length_result fin = Some 0%nat /\
    (* at every instant from the invocation to the response the map is non-empty *)
    (forall x, x ∈ tr -> sc_pc x <> ScIdle -> abs_of (sc_sh x) <> ∅) /\
    (* in particular no instant of the run answers the sequential specification *)
    (forall x, x ∈ tr -> sc_pc x <> ScIdle ->
       (spec_step (abs_of (sc_sh x)) ORange).2 <> RPairs [] /\
       (spec_step (abs_of (sc_sh x)) OLength).2 <> RLen 0).
Proof.
  exists demo_threads, demo_sched. cbv zeta.
  assert (forall x, x ∈ strace (sinit demo_threads) demo_sched -> sc_pc x <> ScIdle ->
            abs_of (sc_sh x) <> ∅) as Hne.
  { apply nonempty_during_spec. vm_compute. reflexivity. }
  split; [apply strace_last|].
  split; [vm_compute; reflexivity|]. split; [vm_compute; reflexivity|].
  split; [exact Hne|].
  intros x Hx Hpc. specialize (Hne x Hx Hpc). simpl. split.
  - intros [= Heq]. apply Hne. apply map_to_list_empty_iff.
    apply Permutation_nil_r. rewrite <-Heq. symmetry. apply sort_pairs_perm.
  - intros [= Heq]. apply Hne. by apply map_size_empty_iff.
Qed.

(* The proofs of Proofs/ValueMapConc*.v establish, for every step of a point-operation thread,
   that the assertion of every OTHER thread survives (rely/guarantee).  To learn what a step
   preserves about an entry the scanner remembers, we add a phantom point-operation thread
   parked at a program point whose assertion says exactly that, apply the existing theorem
   `step_all`, and read the assertion back. *)

Definition add_thr (c : conf) (x : nat) (ts : tstate) : conf :=
  {| c_sh := c_sh c; c_thr := <[x := ts]> (c_thr c); c_hist := c_hist c |}.
Definition add_st (g : ghost) (x : nat) (st : gstatus) : ghost :=
  {| g_l := {| g_abs := g_abs (g_l g); g_th := <[x := st]> (g_th (g_l g)) |};
     g_ek := g_ek g; g_own := g_own g |}.

Lemma cstep_ann_frame c t x tsx :
  x <> t ->
  cstep_ann (add_thr c x tsx) t = (add_thr (cstep c t) x tsx, (cstep_ann c t).2).
Proof.
  intros Hne. unfold cstep. rewrite !cstep_ann_eq. simpl. rewrite lookup_insert_ne by done.
  destruct (c_thr c !! t) as [ts|]; [|done].
  destruct (tstep t (c_sh c) ts) as [[s' ts'] a]. unfold add_thr. simpl. by rewrite insert_commute.
Qed.

Lemma cstep_thr c t x : is_Some (c_thr (cstep c t) !! x) <-> is_Some (c_thr c !! x).
Proof.
  unfold cstep. rewrite cstep_ann_eq. destruct (c_thr c !! t) as [ts|] eqn:Ht; [|done].
  destruct (tstep t (c_sh c) ts) as [[s' ts'] a]. simpl.
  destruct (decide (x = t)) as [->|]; [|by rewrite lookup_insert_ne].
  rewrite lookup_insert, Ht. split; eauto.
Qed.

Lemma Inv_add_thr c g x p o :
  Inv c g -> c_thr c !! x = None -> s_lock (c_sh c) <> Some x -> holds_lock p = false ->
  let g' := add_st g x (GInv o [g_abs (g_l g)]) in
  TI (c_sh c) g' x p -> Inv (add_thr c x {| t_pc := p; t_todo := [] |}) g'.
Proof.
  intros Hi Hx Hlk Hh g' Hti.
  assert (forall t, t <> x -> status g' t = status g t) as Hoth.
  { intros t Hne. unfold status. simpl. by rewrite lookup_insert_ne. }
  apply OInv_Inv; [split|done|by rewrite Hh].
  - apply (i_wf _ _ Hi).
  - apply (i_abs _ _ Hi).
  - intros t o' seen. destruct (decide (t = x)) as [->|Hne].
    + unfold status. simpl. rewrite lookup_insert. intros [= <- <-]. by apply elem_of_list_singleton.
    + rewrite Hoth by done. apply (i_cur _ _ Hi).
  - intros t ts Hne Ht. eapply (TI_ghost_ext _ g); [by apply Hoth|done|done|]. by apply (i_thr _ _ Hi).
  - intros t Hne Ht. rewrite Hoth by done. by apply (i_nothr _ _ Hi).
  - intros t ts _. apply (i_lock _ _ Hi).
Qed.

Lemma fresh_tid (c : conf) (t : nat) :
  exists x, x <> t /\ c_thr c !! x = None /\ s_lock (c_sh c) <> Some x.
Proof.
  set (l := default t (s_lock (c_sh c))).
  set (X := ({[t]} ∪ dom (c_thr c) ∪ {[l]} : gset nat)).
  exists (fresh X). pose proof (is_fresh X) as Hf. split; [|split].
  - intros Heq. apply Hf. set_solver.
  - apply not_elem_of_dom. set_solver.
  - intros Heq. apply Hf. assert (l = fresh X) as <-; [|set_solver].
    unfold l. by rewrite Heq.
Qed.

Lemma phantom_step c g t p o :
  Inv c g -> holds_lock p = false ->
  (forall x g', status g' x = Some (GInv o [g_abs (g_l g)]) -> g_ek g' = g_ek g ->
                TI (c_sh c) g' x p) ->
  exists x g1 seen,
    TI (c_sh (cstep c t)) g1 x p /\ g_ek g1 = g_ek (gstep c t g) /\
    status g1 x = Some (GInv o seen) /\ seen ⊆ [abs_of (c_sh (cstep c t)); abs_of (c_sh c)].
Proof.
  intros Hi Hh Hti. destruct (fresh_tid c t) as (x & Hne & Hx & Hlk).
  set (g' := add_st g x (GInv o [g_abs (g_l g)])).
  assert (status g' x = Some (GInv o [g_abs (g_l g)])) as Hsx by apply lookup_insert.
  pose proof (Inv_add_thr c g x p o Hi Hx Hlk Hh (Hti x g' Hsx eq_refl)) as Hi'.
  destruct (step_all _ _ t Hi') as (_ & Hi1 & _).
  set (g1 := gstep (add_thr c x {| t_pc := p; t_todo := [] |}) t g') in *.
  unfold cstep at 1 in Hi1. rewrite cstep_ann_frame in Hi1 by done. simpl in Hi1.
  pose proof (abs_of_lin _ _ Hi1) as Habs1. pose proof (abs_of_lin _ _ Hi) as Habs. simpl in Habs1.
  assert (exists seen, status g1 x = Some (GInv o seen) /\
            seen ⊆ [abs_of (c_sh (cstep c t)); abs_of (c_sh c)]) as (seen & Hs1 & Hsub).
  { rewrite <-Habs1, <-Habs. unfold status, g1, gstep. cbn [g_l].
    destruct (lg_step_mono (g_l g') t (cstep_ann (add_thr c x {| t_pc := p; t_todo := [] |}) t).2
                x Hne) as [He|(o' & seen & H1 & H2)].
    - eexists. split; [by rewrite He|]. set_solver.
    - unfold status in Hsx. rewrite Hsx in H1. injection H1 as <- <-. eexists. by split. }
  exists x, g1, seen. split; [|split; [|done]].
  - pose proof (i_thr _ _ Hi1 x {| t_pc := p; t_todo := [] |}) as H. simpl in H.
    rewrite lookup_insert in H. by apply H.
  - unfold g1, gstep. simpl. by rewrite lookup_insert_ne.
Qed.

(* the bystander waits at PStoreTry, whose assertion is exactly `held` and `ever` of its entry *)
Lemma point_step_ever c g t k e :
  Inv c g -> held (c_sh c) (g_ek g) k e -> ever (c_sh c) e ->
  held (c_sh (cstep c t)) (g_ek (gstep c t g)) k e /\ ever (c_sh (cstep c t)) e.
Proof.
  intros Hi Hh He.
  destruct (phantom_step c g t (PStoreTry k 0 e) (CStore k 0) Hi eq_refl)
    as (x & g1 & _ & (seen & _ & Hh' & He') & Hek & _); [|by rewrite <-Hek].
  intros x g' Hs Hek. exists [g_abs (g_l g)]. by rewrite Hek.
Qed.

(* the bystander waits at PLoadE, whose assertion SN says the entry is current unless the key
   was seen absent *)
Lemma point_step_current c g t k e :
  Inv c g -> current (c_sh c) k e ->
  is_Some (abs_of (c_sh c) !! k) -> is_Some (abs_of (c_sh (cstep c t)) !! k) ->
  current (c_sh (cstep c t)) k e.
Proof.
  intros Hi Hc Hl0 Hl1.
  destruct (phantom_step c g t (PLoadE k e) (CLoad k) Hi eq_refl)
    as (x & g1 & seen & (seen' & Hs & _ & Hsn) & _ & Hs1 & Hsub).
  { intros x g' Hs Hek. exists [g_abs (g_l g)]. rewrite Hek. split; [done|]. split; [|by left].
    eapply current_held; [apply (i_wf _ _ Hi)|done]. }
  (* had the entry left its key, the key would have been absent before or after the step *)
  destruct Hsn as [Hcur|[_ (σ & Hin & Hnone)]]; [done|]. exfalso.
  rewrite Hs1 in Hs. injection Hs as <-. apply Hsub in Hin. apply eq_None_not_Some in Hnone.
  apply elem_of_cons in Hin as [->|Hin]; [done|]. by apply elem_of_list_singleton in Hin as ->.
Qed.

(* the scanner's own writes: it acts on the shared state like a thread that is not in the
   thread map *)
Lemma scan_write c g x s' :
  Inv c g -> c_thr c !! x = None ->
  (OInv x (c_sh c) (c_thr c) g -> OInv x s' (c_thr c) g) -> Inv (with_sh c s') g.
Proof.
  intros Hi Hx Hs'. pose proof (Hs' (Inv_OInv c g x Hi)) as Ho'. split; simpl.
  - apply (o_wf _ _ _ _ Ho').
  - apply (o_abs _ _ _ _ Ho').
  - apply (o_cur _ _ _ _ Ho').
  - intros t ts Ht. apply (o_thr _ _ _ _ Ho'); [congruence|done].
  - apply (i_nothr _ _ Hi).
  - intros t ts Ht. apply (o_lock _ _ _ _ Ho'); [congruence|done].
Qed.

Lemma ever_live_read s ek own k e v :
  WF s ek own -> held s ek k e -> ever s e -> kload (s_cell s e) = Some v ->
  abs_of s !! k = Some v.
Proof.
  intros Hwf Hh He Hv. rewrite abs_of_lookup. unfold abs_lookup.
  rewrite (ever_rd _ _ _ _ _ Hwf Hh He); [done|]. intros Hx. by rewrite Hx in Hv.
Qed.

Definition sc_locked (p : spc) : bool :=
  match p with ScLocked | ScUnlock _ => true | _ => false end.

Definition entry_ok (s : shared) (g : ghost) (k : key) (e : eid) : Prop :=
  held s (g_ek g) k e /\ ever s e.

Definition table_ok (s : shared) (g : ghost) (p : spc) : Prop :=
  match p with
  | ScUnlock tbl => forall k e, tbl !! k = Some e -> entry_ok s g k e
  | ScEntry todo _ => forall k e, (k, e) ∈ todo -> entry_ok s g k e
  | _ => True
  end.

Record SInv (x : sconf) (g : ghost) : Prop := {
  v_inv : Inv (sc_c x) g;
  v_hist : HInv (c_hist (sc_c x)) (g_l g);
  v_sid : c_thr (sc_c x) !! sc_sid x = None;
  v_lock : s_lock (sc_sh x) = Some (sc_sid x) <-> sc_locked (sc_pc x) = true;
  v_holder : forall z, s_lock (sc_sh x) = Some z ->
             z = sc_sid x \/ is_Some (c_thr (sc_c x) !! z);
  v_tbl : table_ok (sc_sh x) g (sc_pc x);
}.

Lemma elem_of_sorted_tbl (m : gmap key eid) k e : (k, e) ∈ sorted_tbl m <-> m !! k = Some e.
Proof. unfold sorted_tbl. rewrite sort_pairs_perm. apply elem_of_map_to_list. Qed.

Lemma read_entry_ok s g k e :
  WF s (g_ek g) (g_own g) -> s_rd s !! k = Some e -> entry_ok s g k e.
Proof. intros Hwf Hr. split; [by eapply w_rd|]. left. by exists k. Qed.

Lemma with_sh_id c : with_sh c (c_sh c) = c.
Proof. by destruct c. Qed.

Lemma cstep_nothr c t : c_thr c !! t = None -> cstep c t = c.
Proof. unfold cstep, cstep_ann. by intros ->. Qed.

Lemma SInv_th x g t : SInv x g -> SInv (sstep1 x (Th t)) (gstep (sc_c x) t g).
Proof.
  intros Hv. pose proof (v_inv _ _ Hv) as Hi. pose proof (v_sid _ _ Hv) as Hsid.
  destruct (sim_step _ _ t Hi (v_hist _ _ Hv)) as [Hi1 Hh1].
  destruct (step_all _ _ t Hi) as (_ & _ & Hfr).
  assert (forall z, s_lock (c_sh (cstep (sc_c x) t)) = Some z ->
            s_lock (sc_sh x) = Some z \/ (z = t /\ is_Some (c_thr (sc_c x) !! t))) as Hhold.
  { intros z Hz. destruct (c_thr (sc_c x) !! t) eqn:Ht; [|left; by rewrite cstep_nothr in Hz].
    destruct (decide (z = t)) as [->|Hne]; [right; eauto|left; by apply Hfr]. }
  split; simpl; try done.
  - by rewrite eq_None_not_Some, cstep_thr, <-eq_None_not_Some.
  - unfold sc_sh. simpl. rewrite <-(v_lock _ _ Hv). split; intros Hz.
    + destruct (Hhold _ Hz) as [?|[Heq [ts Hts]]]; [done|]. rewrite Heq in Hsid. congruence.
    + destruct (decide (sc_sid x = t)) as [<-|Hne]; [by rewrite cstep_nothr|by apply Hfr].
  - unfold sc_sh. simpl. intros z Hz. destruct (Hhold _ Hz) as [Hz'|[-> Hts]]; [|right; by apply cstep_thr].
    destruct (v_holder _ _ Hv z Hz') as [->|Hs]; [by left|]. right. by apply cstep_thr.
  - pose proof (v_tbl _ _ Hv) as Ht. unfold sc_sh in *. simpl.
    destruct (sc_pc x); simpl in *; try done.
    + intros k e Hke. destruct (Ht k e Hke). by apply point_step_ever.
    + intros k e Hke. destruct (Ht k e Hke). by apply point_step_ever.
Qed.

Lemma SInv_scan x g : SInv x g -> SInv (sstep1 x Scan) g.
Proof.
  intros Hv. pose proof (v_inv _ _ Hv) as Hi. pose proof (i_wf _ _ Hi) as Hwf.
  pose proof (v_hist _ _ Hv) as Hh. pose proof (v_sid _ _ Hv) as Hsid.
  pose proof (v_lock _ _ Hv) as Hlk. pose proof (v_holder _ _ Hv) as Hho.
  pose proof (v_tbl _ _ Hv) as Ht.
  destruct x as [c sid p]. unfold sc_sh in *. simpl in *.
  pose proof (with_sh_id c) as Hc.
  (* taking the free mutex, releasing the own one *)
  assert (forall l l', s_lock (c_sh c) = l -> l = None \/ l = Some sid -> l' = None \/ l' = Some sid ->
            Inv (with_sh c (set_lock (c_sh c) l')) g) as Hset.
  { intros l l' Hl Hl1 Hl2. apply (scan_write c g sid); [done..|]. intros Ho.
    eapply (OInv_same_core sid _ _ g _ g ATau); eauto; [by repeat split|].
    intros t' Hne. simpl. rewrite Hl. destruct Hl1 as [-> | ->], Hl2 as [-> | ->]; split; congruence. }
  assert (forall p', sc_locked p' = sc_locked p -> table_ok (c_sh c) g p' ->
            SInv {| sc_c := with_sh c (c_sh c); sc_sid := sid; sc_pc := p' |} g) as Hsame.
  { intros p' Hl' Ht'. rewrite Hc. split; unfold sc_sh; simpl; rewrite ?Hl'; done. }
  destruct p as [| | | |tbl|todo acc|acc]; simpl.
  - by apply Hsame.
  - destruct (s_am (c_sh c)); simpl; apply Hsame; try done.
    intros k e Hke. apply elem_of_sorted_tbl in Hke. by apply read_entry_ok.
  - destruct (s_lock (c_sh c)) as [l|] eqn:Hl; simpl; [by apply Hsame|].
    split; unfold sc_sh; simpl; try done.
    + apply (Hset None); eauto.
    + intros z [= <-]. by left.
  - destruct (s_am (c_sh c)) eqn:Ham; simpl.
    + assert (Inv (with_sh c (promote (c_sh c))) g) as Hi'.
      { apply (scan_write c g sid); [done..|]. intros Ho. by apply OInv_promote. }
      split; unfold sc_sh; simpl; try done.
      intros k e Hke. apply (read_entry_ok (promote (c_sh c)) g); [apply (i_wf _ _ Hi')|done].
    + apply Hsame; [done|]. intros k e Hke. by apply read_entry_ok.
  - split; unfold sc_sh; simpl; try done.
    + apply (Hset (Some sid)); eauto. by apply Hlk.
    + intros k e Hke. apply elem_of_sorted_tbl in Hke. by apply Ht.
  - destruct todo as [|[k e] rest]; simpl; apply Hsame; try done.
    intros k' e' Hke. apply Ht. by apply elem_of_list_further.
  - by apply Hsame.
Qed.

Lemma SInv_run ws : forall x g, SInv x g -> exists g', SInv (srun x ws) g'.
Proof.
  induction ws as [|w ws IH]; intros x g Hv; simpl; [by exists g|].
  destruct w; eapply IH; [by apply SInv_th|by apply SInv_scan].
Qed.

Lemma init_thr_None threads z :
  (length threads <= z)%nat -> c_thr (init_conf threads) !! z = None.
Proof.
  intros Hz. simpl. apply not_elem_of_list_to_map_1. intros Hin.
  apply elem_of_list_fmap in Hin as ([i ts] & -> & Hin).
  apply elem_of_lookup_imap in Hin as (j & ops & Heq & Hl). inversion Heq; subst.
  apply lookup_lt_Some in Hl. simpl in Hz. lia.
Qed.

Lemma SInv_init threads : SInv (sinit threads) g_init.
Proof.
  split; simpl; try done.
  - apply Inv_init.
  - apply HInv_init.
  - by apply init_thr_None.
Qed.

Lemma SInv_reachable threads ws : exists g, SInv (srun (sinit threads) ws) g.
Proof. eapply SInv_run, SInv_init. Qed.

(* The scanner does not disturb the point operations: in the combined system the history of
   Load / Store / LoadAndDelete / LoadOrStore invocations and responses is still linearizable,
   whatever the scanner does in between (including its promotion of the dirty map). *)
Theorem point_ops_linearizable_with_scan threads ws :
  ValueMapConc.linearizable (history_of (sc_c (srun (sinit threads) ws))).
Proof.
  destruct (SInv_reachable threads ws) as [g Hv].
  eapply HInv_linearizable, (v_hist _ _ Hv).
Qed.

Lemma range_result_Some x res : range_result x = Some res <-> sc_pc x = ScDone res.
Proof. unfold range_result. destruct (sc_pc x); naive_solver. Qed.

Lemma trace_ind (P : list sconf -> sconf -> Prop) x0 g0 :
  SInv x0 g0 -> P [x0] x0 ->
  (forall tr x g w, SInv x g -> x ∈ tr -> P tr x -> P (tr ++ [sstep1 x w]) (sstep1 x w)) ->
  forall ws, P (strace x0 ws) (srun x0 ws).
Proof.
  intros Hv0 H0 Hstep ws. induction ws as [|w ws IH] using rev_ind; [done|].
  destruct (SInv_run ws _ _ Hv0) as [g Hv]. rewrite srun_app, strace_snoc.
  eapply Hstep; [exact Hv|apply srun_in_strace|exact IH].
Qed.

Definition visited (p : spc) : list (key * val) :=
  match p with ScEntry _ acc | ScDone acc => acc | _ => [] end.

Definition scanned (p : spc) : option (list key) :=
  match p with
  | ScEntry todo acc => Some (acc.*1 ++ todo.*1)
  | ScDone acc => Some (acc.*1)
  | _ => None
  end.

Lemma scstep_cases sid s p :
  let p' := (scstep sid s p).2 in
  (visited p' = [] /\ (scanned p' = None \/ exists m, p' = ScEntry (sorted_tbl m) [])) \/
  (exists k e rest acc, p = ScEntry ((k, e) :: rest) acc /\
     p' = ScEntry rest (match kload (s_cell s e) with Some v => acc ++ [(k, v)] | None => acc end)) \/
  (visited p' = visited p /\ scanned p' = scanned p).
Proof.
  destruct p as [| | | |tbl|[|[k e] rest] acc|acc]; simpl.
  - left. eauto.
  - destruct (s_am s); left; eauto.
  - destruct (s_lock s); left; eauto.
  - left. eauto.
  - left. eauto.
  - right. right. by rewrite app_nil_r.
  - right. left. eauto 10.
  - by right; right.
Qed.

(* the scanner's next action is the atomic load of the entry cell it holds for key k *)
Definition loading (k : key) (p : spc) : Prop :=
  exists e rest acc, p = ScEntry ((k, e) :: rest) acc.

Definition Seen (tr : list sconf) (p : spc) : Prop :=
  forall k v, (k, v) ∈ visited p ->
    exists x, x ∈ tr /\ loading k (sc_pc x) /\ abs_of (sc_sh x) !! k = Some v.

Lemma Seen_step tr x g w :
  SInv x g -> x ∈ tr -> Seen tr (sc_pc x) -> Seen (tr ++ [sstep1 x w]) (sc_pc (sstep1 x w)).
Proof.
  intros Hv Hx Hs.
  assert (forall k v, (k, v) ∈ visited (sc_pc x) ->
            exists y, y ∈ tr ++ [sstep1 x w] /\ loading k (sc_pc y) /\ abs_of (sc_sh y) !! k = Some v)
    as Hold.
  { intros k v Hkv. destruct (Hs k v Hkv) as (y & Hy & H). exists y. split; [apply elem_of_app; by left|done]. }
  destruct w as [t|]; [done|].
  pose proof (v_tbl _ _ Hv) as Ht. pose proof (i_wf _ _ (v_inv _ _ Hv)) as Hwf.
  destruct x as [c sid p]. unfold sc_sh in *. simpl in *.
  pose proof (scstep_cases sid (c_sh c) p) as Hc.
  destruct (scstep sid (c_sh c) p) as [s' p']. simpl in *.
  destruct Hc as [[Hnil _]|[(k & e & rest & acc & -> & ->)|[Heq _]]]; intros k' v' Hkv.
  - rewrite Hnil in Hkv. by apply elem_of_nil in Hkv.
  - simpl in Hkv. destruct (kload (s_cell (c_sh c) e)) as [v|] eqn:Hload; [|by apply Hold].
    apply elem_of_app in Hkv as [Hkv|Hkv]; [by apply Hold|].
    apply elem_of_list_singleton in Hkv as [= -> ->].
    exists {| sc_c := c; sc_sid := sid; sc_pc := ScEntry ((k, e) :: rest) acc |}.
    split; [apply elem_of_app; by left|]. split; [by exists e, rest, acc|].
    destruct (Ht k e) as [Hh He]; [apply elem_of_list_here|]. by eapply ever_live_read.
  - rewrite Heq in Hkv. by apply Hold.
Qed.

Lemma Seen_run x0 g0 ws :
  SInv x0 g0 -> visited (sc_pc x0) = [] -> Seen (strace x0 ws) (sc_pc (srun x0 ws)).
Proof.
  intros Hv0 H0. apply (trace_ind (fun tr x => Seen tr (sc_pc x)) x0 g0 Hv0).
  - intros k v Hkv. rewrite H0 in Hkv. by apply elem_of_nil in Hkv.
  - intros tr x g w. apply Seen_step.
Qed.

(* For every schedule: each pair (k, v) reported by Range was the binding of k in the abstract
   map at an instant strictly between the invocation and the response of the scan — namely the
   instant at which the scanner loaded the cell of k's entry. *)
Theorem range_visited_was_present threads ws res k v :
  range_result (srun (sinit threads) ws) = Some res -> (k, v) ∈ res ->
  exists x, x ∈ strace (sinit threads) ws /\ sc_active (sc_pc x) = true /\
            loading k (sc_pc x) /\ abs_of (sc_sh x) !! k = Some v.
Proof.
  intros Hres Hkv. pose proof (Seen_run _ _ ws (SInv_init threads) eq_refl) as Hs.
  apply range_result_Some in Hres. rewrite Hres in Hs. destruct (Hs k v Hkv) as (x & Hx & Hl & Ha).
  exists x. split; [done|]. split; [|done]. by destruct Hl as (e & rest & acc & ->).
Qed.

Definition Tbl (tr : list sconf) (p : spc) : Prop :=
  forall ks, scanned p = Some ks ->
    exists y todo0, y ∈ tr /\ sc_pc y = ScEntry todo0 [] /\
      StronglySorted N.lt (todo0.*1) /\ sublist ks (todo0.*1).

Lemma key_lt_fst (l : list (key * val)) : StronglySorted key_lt l <-> StronglySorted N.lt (l.*1).
Proof.
  induction l as [|p l IH]; simpl.
  { split; constructor. }
  split; intros Hs; apply StronglySorted_inv in Hs as [Hs Hall]; constructor; try (by apply IH).
  - rewrite Forall_fmap. eapply Forall_impl; [exact Hall|]. done.
  - rewrite Forall_fmap in Hall. eapply Forall_impl; [exact Hall|]. done.
Qed.

Lemma sorted_tbl_sorted m : StronglySorted N.lt ((sorted_tbl m).*1).
Proof. apply key_lt_fst, sort_pairs_sorted, NoDup_fst_map_to_list. Qed.

Lemma StronglySorted_sublist {A} (R : relation A) l1 l2 :
  sublist l1 l2 -> StronglySorted R l2 -> StronglySorted R l1.
Proof.
  induction 1 as [|a l1 l2 Hsub IH|a l1 l2 Hsub IH]; intros Hs; [done|..];
    apply StronglySorted_inv in Hs as [Hs Hall]; [|by apply IH].
  constructor; [by apply IH|]. rewrite Forall_forall in *. intros b Hb. apply Hall.
  eapply elem_of_submseteq; [exact Hb|by apply sublist_submseteq].
Qed.

Lemma Tbl_step tr x w :
  x ∈ tr -> Tbl tr (sc_pc x) -> Tbl (tr ++ [sstep1 x w]) (sc_pc (sstep1 x w)).
Proof.
  intros Hx Ht.
  assert (forall p ks, scanned p = Some ks ->
            (exists ks0, scanned (sc_pc x) = Some ks0 /\ sublist ks ks0) ->
            exists y todo0, y ∈ tr ++ [sstep1 x w] /\ sc_pc y = ScEntry todo0 [] /\
              StronglySorted N.lt (todo0.*1) /\ sublist ks (todo0.*1)) as Hmono.
  { intros p ks Hks (ks0 & Hks0 & Hsub). destruct (Ht ks0 Hks0) as (y & todo0 & Hy & Hpy & Hso & Hl).
    exists y, todo0. split; [apply elem_of_app; by left|]. split; [done|]. split; [done|]. by etrans. }
  destruct w as [t|]; [intros ks Hks; eapply Hmono; eauto|].
  destruct x as [c sid p]. simpl in *. pose proof (scstep_cases sid (c_sh c) p) as Hc.
  destruct (scstep sid (c_sh c) p) as [s' p'] eqn:Hst. simpl in *.
  destruct Hc as [[_ [Hn|[m ->]]]|[(k & e & rest & acc & -> & ->)|[_ Heq]]]; intros ks Hks.
  - congruence.
  - injection Hks as <-. eexists _, _. split; [apply elem_of_app; right; by apply elem_of_list_singleton|].
    simpl. split; [done|]. split; [apply sorted_tbl_sorted|done].
  - eapply Hmono; [done|]. eexists. split; [done|]. injection Hks as <-.
    destruct (kload _); simpl; rewrite ?fmap_app, <-?app_assoc; simpl;
      apply sublist_app; try done; by apply sublist_cons.
  - eapply Hmono; [done|]. exists ks. by rewrite <-Heq.
Qed.

Lemma Tbl_run x0 g0 ws :
  SInv x0 g0 -> scanned (sc_pc x0) = None -> Tbl (strace x0 ws) (sc_pc (srun x0 ws)).
Proof.
  intros Hv0 H0. apply (trace_ind (fun tr x => Tbl tr (sc_pc x)) x0 g0 Hv0).
  - intros ks Hks. congruence.
  - intros tr x g w _. apply Tbl_step.
Qed.

Lemma range_sublist threads ws res :
  range_result (srun (sinit threads) ws) = Some res ->
  exists y todo0, y ∈ strace (sinit threads) ws /\ sc_pc y = ScEntry todo0 [] /\
    StronglySorted N.lt (todo0.*1) /\ sublist (res.*1) (todo0.*1).
Proof.
  intros Hres. pose proof (Tbl_run _ _ ws (SInv_init threads) eq_refl) as Ht.
  apply range_result_Some in Hres. rewrite Hres in Ht. by apply Ht.
Qed.

Lemma StronglySorted_lt_NoDup (l : list N) : StronglySorted N.lt l -> NoDup l.
Proof.
  induction l as [|a l IH]; intros Hs; [constructor|].
  apply StronglySorted_inv in Hs as [Hs Hall]. constructor; [|by apply IH].
  intros Hin. rewrite Forall_forall in Hall. specialize (Hall _ Hin). lia.
Qed.

(* For every schedule: the keys reported by Range are strictly increasing; in particular every
   key is visited at most once. *)
Theorem range_keys_increasing threads ws res :
  range_result (srun (sinit threads) ws) = Some res ->
  StronglySorted key_lt res /\ NoDup (res.*1).
Proof.
  intros Hres. destruct (range_sublist _ _ _ Hres) as (_ & todo0 & _ & _ & Hso & Hsub).
  pose proof (StronglySorted_sublist _ _ _ Hsub Hso).
  split; [by apply key_lt_fst|by apply StronglySorted_lt_NoDup].
Qed.

Definition load_pair (s : shared) (ke : key * eid) : option (key * val) :=
  match kload (s_cell s ke.2) with Some v => Some (ke.1, v) | None => None end.

Lemma srun_scan_S x n : srun x (repeat Scan (S n)) = srun (sstep1 x Scan) (repeat Scan n).
Proof. done. Qed.

Lemma scan_done n : forall x acc,
  sc_pc x = ScDone acc ->
  sc_pc (srun x (repeat Scan n)) = ScDone acc /\ sc_sh (srun x (repeat Scan n)) = sc_sh x.
Proof.
  induction n as [|n IH]; intros x acc Hp; [done|].
  rewrite srun_scan_S. destruct x as [c sid p]. simpl in Hp. subst p.
  destruct (IH (sstep1 {| sc_c := c; sc_sid := sid; sc_pc := ScDone acc |} Scan) acc eq_refl)
    as [H1 H2].
  by rewrite H1, H2.
Qed.

Lemma scan_entries n : forall x todo acc res,
  sc_pc x = ScEntry todo acc ->
  range_result (srun x (repeat Scan n)) = Some res ->
  res = acc ++ omap (load_pair (sc_sh x)) todo /\ sc_sh (srun x (repeat Scan n)) = sc_sh x.
Proof.
  induction n as [|n IH]; intros x todo acc res Hp Hres.
  { apply range_result_Some in Hres. simpl in Hres. congruence. }
  rewrite srun_scan_S in *. destruct x as [c sid p]. simpl in Hp. subst p.
  destruct todo as [|[k e] rest].
  - destruct (scan_done n (sstep1 {| sc_c := c; sc_sid := sid; sc_pc := ScEntry [] acc |} Scan)
                acc eq_refl) as [H1 H2].
    apply range_result_Some in Hres. rewrite H1 in Hres. injection Hres as <-.
    rewrite H2. simpl. by rewrite app_nil_r.
  - destruct (IH (sstep1 {| sc_c := c; sc_sid := sid; sc_pc := ScEntry ((k, e) :: rest) acc |} Scan)
                rest
                (match kload (s_cell (c_sh c) e) with Some v => acc ++ [(k, v)] | None => acc end)
                res eq_refl Hres) as [H1 H2].
    split; [|exact H2]. rewrite H1. unfold sc_sh. simpl. unfold load_pair at 2. simpl.
    destruct (kload (s_cell (c_sh c) e)); simpl; [by rewrite <-app_assoc|done].
Qed.

Lemma omap_fst_sorted (f : key * eid -> option (key * val)) l :
  (forall a b, f a = Some b -> b.1 = a.1) ->
  StronglySorted key_lt l -> StronglySorted key_lt (omap f l).
Proof.
  intros Hf. induction l as [|a l IH]; intros Hs; simpl; [constructor|].
  apply StronglySorted_inv in Hs as [Hs Hall]. destruct (f a) as [b|] eqn:Hfa; [|by apply IH].
  constructor; [by apply IH|]. rewrite Forall_forall. intros b' Hb'.
  apply elem_of_list_omap in Hb' as (a' & Ha' & Hfa').
  rewrite Forall_forall in Hall. specialize (Hall _ Ha'). unfold key_lt in *.
  rewrite (Hf _ _ Hfa), (Hf _ _ Hfa'). done.
Qed.

Lemma scan_table_exact s :
  s_am s = false ->
  omap (load_pair s) (sorted_tbl (s_rd s)) = sort_pairs (map_to_list (abs_of s)).
Proof.
  intros Ham. apply (StronglySorted_unique key_lt).
  - apply omap_fst_sorted.
    + intros [k e] b. unfold load_pair. simpl. destruct (kload _); [|done]. by intros [= <-].
    + apply sort_pairs_sorted, NoDup_fst_map_to_list.
  - apply sort_pairs_sorted, NoDup_fst_map_to_list.
  - unfold sorted_tbl. rewrite !sort_pairs_perm. unfold abs_of. rewrite Ham.
    rewrite (right_id_L ∅ (∪)). rewrite map_to_list_omap_perm. done.
Qed.

Lemma quiescent_lock_free x g :
  SInv x g -> quiescent (sc_c x) -> sc_locked (sc_pc x) = false -> s_lock (sc_sh x) = None.
Proof.
  intros Hv Hq Hl. destruct (s_lock (sc_sh x)) as [z|] eqn:Hz; [|done]. exfalso.
  destruct (v_holder _ _ Hv z Hz) as [->|[ts Hts]].
  - apply (v_lock _ _ Hv) in Hz. congruence.
  - pose proof (i_lock _ _ (v_inv _ _ Hv) _ _ Hts) as Hi. rewrite (Hq _ _ Hts) in Hi.
    simpl in Hi. by apply Hi in Hz.
Qed.

(* run alone from an idle quiescent state, the scanner — after two steps, or five with the
   promotion of the dirty map — enters the loop over the complete table of a state with the same
   abstract contents, without having returned before *)
Lemma quiescent_prefix x g :
  SInv x g -> sc_pc x = ScIdle -> quiescent (sc_c x) ->
  exists m s',
    srun x (repeat Scan m) = {| sc_c := with_sh (sc_c x) s'; sc_sid := sc_sid x;
                                sc_pc := ScEntry (sorted_tbl (s_rd s')) [] |} /\
    s_am s' = false /\ abs_of s' = abs_of (sc_sh x) /\
    forall j, (j < m)%nat -> range_result (srun x (repeat Scan j)) = None.
Proof.
  intros Hv Hp Hq. destruct x as [c sid p]. simpl in Hp, Hq. subst p.
  pose proof (with_sh_id c) as Hc.
  assert (sstep1 {| sc_c := c; sc_sid := sid; sc_pc := ScIdle |} Scan
          = {| sc_c := c; sc_sid := sid; sc_pc := ScLoadRead |}) as H1 by (simpl; by rewrite Hc).
  destruct (s_am (c_sh c)) eqn:Ham.
  2:{ exists 2%nat, (c_sh c). unfold sc_sh. simpl. rewrite Ham. simpl. rewrite !Hc.
      repeat split; try done. intros [|[|j]] Hj; [done| |lia]. by rewrite srun_scan_S, H1. }
  assert (sstep1 {| sc_c := c; sc_sid := sid; sc_pc := ScLoadRead |} Scan
          = {| sc_c := c; sc_sid := sid; sc_pc := ScLock |}) as H2 by (simpl; by rewrite Ham, Hc).
  pose proof (SInv_scan _ _ (SInv_scan _ _ Hv)) as Hv2. rewrite H1, H2 in Hv2.
  pose proof (quiescent_lock_free _ _ Hv2 Hq eq_refl) as Hfree. unfold sc_sh in Hfree. simpl in Hfree.
  set (s5 := set_lock (promote (set_lock (c_sh c) (Some sid))) None).
  assert (srun {| sc_c := c; sc_sid := sid; sc_pc := ScLock |} (repeat Scan 3)
          = {| sc_c := with_sh c s5; sc_sid := sid; sc_pc := ScEntry (sorted_tbl (s_rd s5)) [] |}) as H5.
  { simpl. rewrite Hfree. simpl. by rewrite Ham. }
  exists 5%nat, s5. rewrite !srun_scan_S, H1, H2. split; [exact H5|]. split; [done|]. split.
  - (* the ghost abstract map is that of the shared state before and after *)
    pose proof (SInv_scan _ _ (SInv_scan _ _ (SInv_scan _ _ Hv2))) as Hv5.
    change (SInv (srun {| sc_c := c; sc_sid := sid; sc_pc := ScLock |} (repeat Scan 3)) g) in Hv5.
    rewrite H5 in Hv5.
    pose proof (abs_of_lin _ _ (v_inv _ _ Hv)) as E1. pose proof (abs_of_lin _ _ (v_inv _ _ Hv5)) as E2.
    simpl in E1, E2. unfold sc_sh. simpl. congruence.
  - intros [|[|[|[|[|j]]]]] Hj; try lia; rewrite ?srun_scan_S, ?H1, ?H2; try done;
      simpl; rewrite Hfree; simpl; by rewrite ?Ham.
Qed.

(* Once quiescent — no point operation in progress (every thread idle) when the scan is
   invoked, and only the scanner runs until it returns — Range returns exactly the abstract
   contents of the map, sorted by key, i.e. the answer of the sequential specification; the
   scan (including its promotion of the dirty map) leaves the abstract contents unchanged. *)
Theorem range_quiescent_exact_from x g n res :
  SInv x g -> sc_pc x = ScIdle -> quiescent (sc_c x) ->
  range_result (srun x (repeat Scan n)) = Some res ->
  res = sort_pairs (map_to_list (abs_of (sc_sh x))) /\
  abs_of (sc_sh (srun x (repeat Scan n))) = abs_of (sc_sh x).
Proof.
  intros Hv Hp Hq Hres. destruct (quiescent_prefix x g Hv Hp Hq) as (m & s' & Hm & Ham & Habs & Hno).
  destruct (decide (n < m)%nat) as [Hlt|Hge]; [by rewrite (Hno n Hlt) in Hres|].
  replace n with (m + (n - m))%nat in * by lia. rewrite repeat_app, srun_app, Hm in *.
  eapply scan_entries in Hres as [-> ->]; [|done]. unfold sc_sh. simpl.
  by rewrite scan_table_exact, Habs.
Qed.

(* run alone from a quiescent state the scan does return (the theorems above are not vacuous) *)
Lemma scan_entries_terminate todo : forall c sid acc,
  exists res, range_result (srun {| sc_c := c; sc_sid := sid; sc_pc := ScEntry todo acc |}
                                 (repeat Scan (S (length todo)))) = Some res.
Proof.
  induction todo as [|[k e] rest IH]; intros c sid acc.
  - by exists acc.
  - simpl length. rewrite srun_scan_S. apply IH.
Qed.

Theorem range_quiescent_terminates x g :
  SInv x g -> sc_pc x = ScIdle -> quiescent (sc_c x) ->
  exists n res, range_result (srun x (repeat Scan n)) = Some res.
Proof.
  intros Hv Hp Hq. destruct (quiescent_prefix x g Hv Hp Hq) as (m & s' & Hm & _).
  destruct (scan_entries_terminate (sorted_tbl (s_rd s')) (with_sh (sc_c x) s') (sc_sid x) [])
    as [res Hres].
  exists (m + S (length (sorted_tbl (s_rd s'))))%nat, res. by rewrite repeat_app, srun_app, Hm.
Qed.

Theorem range_quiescent_exact threads pre n res :
  let x := srun (sinit threads) pre in
  sc_pc x = ScIdle -> quiescent (sc_c x) ->
  range_result (srun x (repeat Scan n)) = Some res ->
  res = sort_pairs (map_to_list (abs_of (sc_sh x))) /\
  RPairs res = (spec_step (abs_of (sc_sh x)) ORange).2 /\
  abs_of (sc_sh (srun x (repeat Scan n))) = abs_of (sc_sh x).
Proof.
  intros x Hp Hq Hres. destruct (SInv_reachable threads pre) as [g Hv]. fold x in Hv.
  destruct (range_quiescent_exact_from x g n res Hv Hp Hq Hres) as [-> Habs]. done.
Qed.

(* ... and these contents are those of a sequential execution of the point operations:
   abs_of is the state reached by replaying a linearization of the recorded history (marks
   between invocation and response, Model/ValueMapConc.v); in a quiescent state no operation is
   pending in that linearization, so it is a sequential order of exactly the completed ones. *)
Theorem abs_of_is_linearized_contents threads ws :
  let x := srun (sinit threads) ws in
  exists l st, erase l = history_of (sc_c x) /\
               replay (∅, ∅) l = Some (abs_of (sc_sh x), st) /\
               (quiescent (sc_c x) -> st = ∅).
Proof.
  intros x. destruct (SInv_reachable threads ws) as [g Hv]. fold x in Hv.
  pose proof (v_inv _ _ Hv) as Hi.
  destruct (v_hist _ _ Hv) as (l & He & Hr & _). exists l, (stat (g_l g)).
  split; [done|]. split; [by rewrite Hr, (abs_of_lin _ _ Hi)|].
  intros Hq. unfold stat. apply map_eq. intros t. rewrite lookup_fmap, lookup_empty.
  change (g_th (g_l g) !! t) with (status g t).
  destruct (c_thr (sc_c x) !! t) as [ts|] eqn:Ht.
  - pose proof (i_thr _ _ Hi _ _ Ht) as Hti. rewrite (Hq _ _ Ht) in Hti. simpl in Hti. by rewrite Hti.
  - by rewrite (i_nothr _ _ Hi _ Ht).
Qed.

Definition Live (k : key) (tr : list sconf) : Prop :=
  forall x, x ∈ tr -> sc_active (sc_pc x) = true -> is_Some (abs_of (sc_sh x) !! k).

Definition tracked (k : key) (s : shared) (p : spc) : Prop :=
  match p with
  | ScUnlock tbl => exists e, tbl !! k = Some e /\ current s k e
  | ScEntry todo acc => k ∈ acc.*1 \/ exists e, (k, e) ∈ todo /\ current s k e
  | ScDone acc => k ∈ acc.*1
  | _ => True
  end.

Lemma live_read s k : s_am s = false -> is_Some (abs_of s !! k) -> is_Some (s_rd s !! k).
Proof.
  intros Ham. rewrite abs_of_lookup. unfold abs_lookup. rewrite Ham.
  destruct (s_rd s !! k); [done|]. by intros [? ?].
Qed.

Lemma tracked_step k tr x g w :
  SInv x g -> x ∈ tr ->
  (Live k tr -> tracked k (sc_sh x) (sc_pc x)) ->
  Live k (tr ++ [sstep1 x w]) -> tracked k (sc_sh (sstep1 x w)) (sc_pc (sstep1 x w)).
Proof.
  intros Hv Hx IH Hlive.
  assert (Live k tr) as Hl0.
  { intros y Hy. apply Hlive, elem_of_app. by left. }
  specialize (IH Hl0).
  assert (sc_active (sc_pc x) = true -> is_Some (abs_of (sc_sh x) !! k)) as Hnow by (by apply Hl0).
  assert (sc_active (sc_pc (sstep1 x w)) = true -> is_Some (abs_of (sc_sh (sstep1 x w)) !! k)) as Hnext.
  { apply Hlive, elem_of_app. right. apply elem_of_list_here. }
  pose proof (v_inv _ _ Hv) as Hi. pose proof (i_wf _ _ Hi) as Hwf.
  destruct w as [t|].
  { unfold sc_sh in *. simpl in *.
    destruct (sc_pc x) eqn:Hp; simpl in *; try done.
    - destruct IH as (e & He & Hc). exists e. split; [done|].
      eapply point_step_current; eauto.
    - destruct IH as [Hin|(e & He & Hc)]; [by left|]. right. exists e. split; [done|].
      eapply point_step_current; eauto. }
  destruct x as [c sid p]. unfold sc_sh in *. simpl in *.
  pose proof (with_sh_id c) as Hc.
  destruct p as [| | | |tbl|todo acc|acc]; simpl in *.
  - done.
  - destruct (s_am (c_sh c)) eqn:Ham; simpl in *; [done|]. right.
    destruct (live_read _ _ Ham (Hnext eq_refl)) as [e He]. exists e.
    split; [by apply elem_of_sorted_tbl|by left].
  - by destruct (s_lock (c_sh c)).
  - set (s' := if s_am (c_sh c) then promote (c_sh c) else c_sh c) in *.
    assert (s_am s' = false) as Ham'.
    { unfold s'. by destruct (s_am (c_sh c)) eqn:E. }
    destruct (live_read _ _ Ham' (Hnext eq_refl)) as [e He]. exists e. split; [done|by left].
  - destruct IH as (e & He & Hcur). right. exists e. by split; [apply elem_of_sorted_tbl|].
  - destruct todo as [|[k' e'] rest]; simpl in *.
    { destruct IH as [Hin|(e & He & _)]; [done|]. by apply elem_of_nil in He. }
    destruct IH as [Hin|(e & He & Hcur)].
    { left. destruct (kload _); [|done]. rewrite fmap_app. apply elem_of_app. by left. }
    apply elem_of_cons in He as [[= <- <-]|He].
    + left. specialize (Hnow eq_refl). rewrite abs_of_lookup in Hnow.
      rewrite (abs_lookup_current _ _ _ _ _ Hwf Hcur) in Hnow. destruct Hnow as [v Hv'].
      rewrite Hv', fmap_app. apply elem_of_app. right. apply elem_of_list_here.
    + right. exists e. done.
  - done.
Qed.

Lemma tracked_run k x0 g0 ws :
  SInv x0 g0 -> sc_pc x0 = ScIdle ->
  Live k (strace x0 ws) -> tracked k (sc_sh (srun x0 ws)) (sc_pc (srun x0 ws)).
Proof.
  intros Hv0 H0.
  apply (trace_ind (fun tr x => Live k tr -> tracked k (sc_sh x) (sc_pc x)) x0 g0 Hv0).
  - by rewrite H0.
  - intros tr x g w. apply tracked_step.
Qed.

(* For every schedule: a key that is in the abstract map at every instant strictly between the
   invocation and the response of the scan is visited (exactly once, and with the value it had
   when its cell was loaded, by the two theorems above).  This covers in particular a key that
   is live with an unchanged entry during the whole scan — no hypothesis about the table is
   needed: such a key is always in the table the scanner takes. *)
Theorem range_live_key_visited threads ws res k :
  range_result (srun (sinit threads) ws) = Some res ->
  (forall x, x ∈ strace (sinit threads) ws -> sc_active (sc_pc x) = true ->
             is_Some (abs_of (sc_sh x) !! k)) ->
  k ∈ res.*1.
Proof.
  intros Hres Hlive. pose proof (tracked_run k _ _ ws (SInv_init threads) eq_refl Hlive) as Ht.
  apply range_result_Some in Hres. by rewrite Hres in Ht.
Qed.

(* Length performs the same scan and returns the number of entries whose cell held a value
   at the moment it was loaded: by definition, the length of the list Range would report. *)
Lemma length_result_spec x n :
  length_result x = Some n <-> exists res, range_result x = Some res /\ n = length res.
Proof.
  unfold length_result. destruct (range_result x) as [res|]; simpl.
  - split; [intros [= <-]; by exists res|]. by intros (res' & [= <-] & ->).
  - split; [done|]. by intros (? & ? & _).
Qed.

(* For every schedule, Length() = n where, for the list res of pairs a Range with the same
   memory actions reports:  n = |res|;  the keys of res are distinct and each was in the map,
   with that value, at the instant its cell was loaded (so n <= number of keys that were live
   at some instant of the scan);  n <= number of keys of the table the scanner took;  and every
   key that is live during the whole scan is counted. *)
Theorem length_contract threads ws n :
  length_result (srun (sinit threads) ws) = Some n ->
  exists res,
    n = length res /\ NoDup (res.*1) /\
    (forall k v, (k, v) ∈ res ->
       exists x, x ∈ strace (sinit threads) ws /\ sc_active (sc_pc x) = true /\
                 loading k (sc_pc x) /\ abs_of (sc_sh x) !! k = Some v) /\
    (exists y todo0, y ∈ strace (sinit threads) ws /\ sc_pc y = ScEntry todo0 [] /\
                     (n <= length todo0)%nat) /\
    (forall ks, NoDup ks ->
       (forall k, k ∈ ks -> forall x, x ∈ strace (sinit threads) ws ->
                  sc_active (sc_pc x) = true -> is_Some (abs_of (sc_sh x) !! k)) ->
       (length ks <= n)%nat).
Proof.
  intros Hn. apply length_result_spec in Hn as (res & Hres & ->). exists res.
  split; [done|]. split; [by eapply range_keys_increasing|].
  split; [intros k v; by eapply range_visited_was_present|]. split.
  - destruct (range_sublist _ _ _ Hres) as (y & todo0 & Hy & Hpy & _ & Hsub). exists y, todo0.
    split; [done|]. split; [done|]. apply sublist_length in Hsub. by rewrite !fmap_length in Hsub.
  - intros ks Hnd Hlive. rewrite <-(fmap_length fst res). apply submseteq_length.
    apply NoDup_submseteq; [done|]. intros k Hk.
    eapply range_live_key_visited; [done|]. by apply Hlive.
Qed.

(* quiescent: Length is the exact size, the answer of the sequential specification *)
Theorem length_quiescent_exact threads pre n m :
  let x := srun (sinit threads) pre in
  sc_pc x = ScIdle -> quiescent (sc_c x) ->
  length_result (srun x (repeat Scan n)) = Some m ->
  m = size (abs_of (sc_sh x)) /\ RLen m = (spec_step (abs_of (sc_sh x)) OLength).2.
Proof.
  intros x Hp Hq Hm. apply length_result_spec in Hm as (res & Hres & ->).
  destruct (range_quiescent_exact threads pre n res Hp Hq Hres) as (-> & _ & _). fold x.
  assert (length (sort_pairs (map_to_list (abs_of (sc_sh x)))) = size (abs_of (sc_sh x))) as ->; [|done].
  by rewrite sort_pairs_perm.
Qed.

(* A quiescent scan after all operations of demo_threads returns exactly the contents. *)
Definition quiet_sched : list who := repeat (Th 0) 6 ++ repeat (Th 1) 14.

Example quiet_is_quiescent :
  let x := srun (sinit demo_threads) quiet_sched in
  sc_pc x = ScIdle /\
  map (fun ts => t_pc ts.2) (map_to_list (c_thr (sc_c x))) = [PIdle; PIdle] /\
  contents x = [(2, 3)] /\
  range_result (srun x (repeat Scan 8)) = Some [(2, 3)] /\
  length_result (srun x (repeat Scan 8)) = Some 1%nat.
Proof. vm_compute. repeat split; reflexivity. Qed.

(* the same scan started while thread 0 has stored key 1 (amended state: lock + promotion),
   run alone: returns the contents, and the mutex is released *)
Example quiet_promoting :
  let x := srun (sinit demo_threads) (repeat (Th 0) 6) in
  s_am (sc_sh x) = true /\
  range_result (srun x (repeat Scan 7)) = Some [(1, 1)] /\
  s_lock (sc_sh (srun x (repeat Scan 7))) = None /\
  s_am (sc_sh (srun x (repeat Scan 7))) = false.
Proof. vm_compute. repeat split; reflexivity. Qed.

Example scan_blocks_on_mutex :
  let x := srun (sinit demo_threads) (repeat (Th 0) 6 ++ repeat (Th 1) 3 ++ repeat Scan 9) in
  s_lock (sc_sh x) = Some 1%nat /\ sc_pc x = ScLock.
Proof. vm_compute. split; reflexivity. Qed.

(* a scan overlapping Store(2,3) may or may not see key 2 — both answers are within the contract *)
Example overlap_sees_new_key :
  range_result (srun (sinit demo_threads)
     (repeat (Th 0) 6 ++ repeat (Th 1) 4 ++ repeat Scan 2 ++ repeat (Th 1) 2 ++ repeat Scan 8))
  = Some [(1, 1); (2, 3)].
Proof. vm_compute. reflexivity. Qed.
Example overlap_misses_new_key :
  range_result (srun (sinit demo_threads)
     (repeat (Th 0) 6 ++ repeat Scan 5 ++ repeat (Th 1) 6 ++ repeat Scan 8))
  = Some [(1, 1)].
Proof. vm_compute. reflexivity. Qed.

Print Assumptions range_not_atomic_snapshot.
Print Assumptions range_visited_was_present.
Print Assumptions range_quiescent_exact.
Print Assumptions range_quiescent_terminates.
Print Assumptions abs_of_is_linearized_contents.
Print Assumptions range_keys_increasing.
Print Assumptions range_live_key_visited.
Print Assumptions length_contract.
Print Assumptions length_quiescent_exact.
Print Assumptions point_ops_linearizable_with_scan.

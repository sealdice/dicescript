(* Proofs about Model/Json.v.
   C10: whatever document is decoded, a successful result is well-formed — by an invariant on the
   annotated document (every decoding outcome recorded for a child is well-formed) that dec_value
   turns into wf of its own result; on a well-formed value no observer reaches a failed type
   assertion.  C09: for a table satisfying tags_ok the decoder undoes the encoder kind by kind
   (of_json_<kind>), hence the round trip; the graph encoder terminates and reports every cycle,
   by a specification of ToJSONRaw over the set of containers on the current path (Section Graph). *)
From Coq Require Import String Ascii NArith ZArith List Bool Lia.
From DS Require Import Model.Json.
Import ListNotations.
Open Scope string_scope.

(* Induction over the three tree types goes through their children: the elements of an array, the
   values of an object / dict / attribute map. *)
Definition jkids (j : json) : list json :=
  match j with JArr l => l | JObj l => map snd l | _ => [] end.
Definition vkids (v : value) : list value :=
  match v with VArr l => l | VDict l | VComputed _ (Some l) => map snd l | _ => [] end.
Definition rkids (r : rvalue) : list rvalue :=
  match r with RArr _ l => l | RDict _ l | RComputed _ _ (Some l) => map snd l | _ => [] end.

Lemma json_kids_ind : forall P : json -> Prop, (forall j, Forall P (jkids j) -> P j) -> forall j, P j.
Proof.
  intros P H. fix IH 1. intros j. apply H.
  destruct j as [| | | | |l|l]; simpl; try constructor;
    (induction l as [|x r IHr]; [constructor | exact (Forall_cons _ (IH _) IHr)]).
Qed.

Lemma value_kids_ind : forall P : value -> Prop, (forall v, Forall P (vkids v) -> P v) -> forall v, P v.
Proof.
  intros P H. fix IH 1. intros v. apply H.
  destruct v as [| | | |l|l| |e [l|]| |]; simpl; try constructor;
    (induction l as [|x r IHr]; [constructor | exact (Forall_cons _ (IH _) IHr)]).
Qed.

Lemma rvalue_kids_ind : forall P : rvalue -> Prop, (forall r, Forall P (rkids r) -> P r) -> forall r, P r.
Proof.
  intros P H. fix IH 1. intros v. apply H.
  destruct v as [| | | | |t l|t l| |t e [l|]| |]; simpl; try constructor;
    (induction l as [|x r IHr]; [constructor | exact (Forall_cons _ (IH _) IHr)]).
Qed.

Lemma dispatch_sound : forall T t k, dispatch T t = Some k -> t = kind_tag T k.
Proof.
  intros T t k. unfold dispatch.
  repeat match goal with
         | |- context [(?a =? ?b)%Z] => destruct (Z.eqb_spec a b)
         end; intros H; inversion H; subst; auto.
Qed.

Lemma assign_inv : forall A (conv : ajson -> option (option A)) (R : ajson -> Prop) (Q : A -> Prop),
  (forall a x, R a -> conv a = Some (Some x) -> Q x) ->
  forall vals, Forall R vals -> forall cur y, Q cur -> assign conv cur vals = Some y -> Q y.
Proof.
  intros A conv R Q Hconv. induction 1 as [|a r Ha _ IH]; simpl; intros cur y Hc H.
  - inversion H; subst; auto.
  - destruct (conv a) as [[x|]|] eqn:E; try discriminate; eauto.
Qed.

Lemma forallb_Forall : forall A (p : A -> bool) l, forallb p l = true <-> Forall (fun x => p x = true) l.
Proof. intros. rewrite forallb_forall, Forall_forall. reflexivity. Qed.

Lemma Forall_mp : forall A (P Q : A -> Prop) l,
  Forall (fun x => P x -> Q x) l -> Forall P l -> Forall Q l.
Proof. induction 1; intros HP; inversion HP; subst; constructor; auto. Qed.

Lemma Forall_snd : forall A B (P : B -> Prop) (Q : A * B -> Prop) (l : list (A * B)),
  Forall P (map snd l) -> (forall k x, P x -> Q (k, x)) -> Forall Q l.
Proof.
  intros A B P Q l H HPQ. rewrite Forall_map in H. eapply Forall_impl; [|exact H].
  intros [k x]. apply HPQ.
Qed.

Lemma has_key_in : forall A k (l : list (string * A)), has_key k l = true -> exists v, In (k, v) l.
Proof.
  induction l as [|[k' v] r IH]; simpl; intros H; try discriminate.
  destruct (String.eqb_spec k k').
  - subst. eexists; left; reflexivity.
  - destruct (IH H) as [x Hx]. eexists; right; eauto.
Qed.

Lemma in_has_key : forall A k (v : A) l, In (k, v) l -> has_key k l = true.
Proof.
  induction l as [|[k' v'] r IH]; simpl; intros H; [tauto|].
  destruct (String.eqb_spec k k'); auto. destruct H as [H|H]; [congruence | auto].
Qed.

Lemma dedup_last_sub : forall A (l : list (string * A)) kv, In kv (dedup_last l) -> In kv l.
Proof.
  induction l as [|[k v] r IH]; simpl; intros kv H; auto.
  destruct (has_key k r); [right; auto|].
  destruct H; [left; auto | right; auto].
Qed.

Lemma has_key_dedup : forall A k (l : list (string * A)), has_key k (dedup_last l) = has_key k l.
Proof.
  induction l as [|[k' v] r IH]; simpl; auto.
  destruct (has_key k' r) eqn:E; simpl.
  - rewrite IH. destruct (String.eqb_spec k k'); subst; auto.
  - rewrite IH. reflexivity.
Qed.

Lemma dedup_last_nodup : forall A (l : list (string * A)), nodup_keys (dedup_last l) = true.
Proof.
  induction l as [|[k v] r IH]; simpl; auto.
  destruct (has_key k r) eqn:E; auto.
  simpl. rewrite has_key_dedup, E. auto.
Qed.

Lemma dedup_last_id : forall A (l : list (string * A)), nodup_keys l = true -> dedup_last l = l.
Proof.
  induction l as [|[k v] r IH]; simpl; auto.
  destruct (has_key k r); intros H; try discriminate. rewrite IH; auto.
Qed.

Lemma map_entries_elems : forall l,
  option_map (map snd) (map_entries l) = elems (map snd l).
Proof.
  induction l as [|[k [c o]] r IH]; simpl; auto.
  rewrite <- IH. destruct c, o; try reflexivity; destruct (map_entries r); reflexivity.
Qed.

Definition kids (a : ajson) : list (ajson * option rvalue) :=
  match a with AArr l => l | AObj l => map snd l | _ => [] end.

Section Decoder.
  Variable T : json_tags.

  Lemma wf_map_spec : forall m,
    wf_map T m = true <-> Forall (fun kv => wf T (snd kv) = true) m /\ nodup_keys m = true.
  Proof. intros m. unfold wf_map. rewrite andb_true_iff, forallb_Forall. reflexivity. Qed.

  Lemma wf_arr : forall t l, wf T (RArr t l) = true -> Forall (fun x => wf T x = true) l.
  Proof. intros t l H. simpl in H. apply andb_true_iff in H. apply forallb_Forall, H. Qed.

  Lemma wf_dict : forall t l, wf T (RDict t l) = true -> wf_map T l = true.
  Proof. intros t l H. simpl in H. rewrite <- andb_assoc in H. apply andb_true_iff in H. apply H. Qed.

  Lemma wf_comp : forall t e l, wf T (RComputed t e (Some l)) = true -> wf_map T l = true.
  Proof. intros t e l H. simpl in H. rewrite <- andb_assoc in H. apply andb_true_iff in H. apply H. Qed.

  Lemma wf_kids : forall r, wf T r = true -> Forall (fun x => wf T x = true) (rkids r).
  Proof.
    intros r H. destruct r as [| | | | |t l|t l| |t e [l|]| |]; try constructor.
    - exact (wf_arr t l H).
    - apply Forall_map, (proj1 (wf_map_spec l)), (wf_dict t l H).
    - apply Forall_map, (proj1 (wf_map_spec l)), (wf_comp t e l H).
  Qed.

  (* The invariant on annotated documents.  ann_wf o: the outcome o recorded for one child, when it
     is a success, is well-formed.  ann_ok a: that holds of every outcome recorded below a, at any
     depth.  child_ok and entries_ok only name the body of ann_ok's constructor, for one child and
     for the entries of an object: the form in which obj_entries and field_vals hand it on. *)
  Definition ann_wf (o : option rvalue) : Prop := forall r, o = Some r -> wf T r = true.

  Inductive ann_ok (a : ajson) : Prop :=
    ann_ok_kids : Forall (fun co => ann_ok (fst co) /\ ann_wf (snd co)) (kids a) -> ann_ok a.

  Definition child_ok (co : ajson * option rvalue) : Prop := ann_ok (fst co) /\ ann_wf (snd co).
  Definition entries_ok (fs : aentries) : Prop := Forall (fun kco => child_ok (snd kco)) fs.

  Lemma ann_ok_obj : forall l, ann_ok (AObj l) <-> entries_ok l.
  Proof.
    intros l. unfold entries_ok. rewrite <- Forall_map.
    split; [intros [H]; exact H | constructor; assumption].
  Qed.

  Lemma ann_ok_arr : forall l, ann_ok (AArr l) <-> Forall child_ok l.
  Proof. split; [intros [H]; exact H | constructor; assumption]. Qed.

  Lemma obj_entries_ok : forall a fs, ann_ok a -> obj_entries a = Some fs -> entries_ok fs.
  Proof.
    intros a fs Ha H. destruct a; inversion H; subst; [constructor | apply ann_ok_obj, Ha].
  Qed.

  Lemma field_vals_ok : forall f fs, entries_ok fs -> Forall ann_ok (field_vals f fs).
  Proof.
    intros f fs H. unfold field_vals. rewrite Forall_map.
    eapply Forall_impl; [|exact (incl_Forall (incl_filter _ fs) H)]. intros kv [Hc _]. exact Hc.
  Qed.

  Lemma inner_entries_ok : forall vals, Forall ann_ok vals ->
    forall inner, inner_entries vals = Some inner -> entries_ok inner.
  Proof.
    induction 1 as [|a r Ha _ IH]; simpl; intros inner H.
    - inversion H. constructor.
    - destruct a; try discriminate; auto.
      destruct (inner_entries r); try discriminate. inversion H; subst.
      apply Forall_app. split; [apply ann_ok_obj, Ha | exact (IH _ eq_refl)].
  Qed.

  Definition nil_or_wf (r : rvalue) : Prop := r = RNil \/ wf T r = true.

  Lemma elems_nil_or_wf : forall l, Forall child_ok l ->
    forall l', elems l = Some l' -> Forall nil_or_wf l'.
  Proof.
    induction 1 as [|[c o] r [Hc Ho] _ IH]; simpl; intros l' H.
    - inversion H; auto.
    - destruct c; destruct o as [v|]; try discriminate;
        destruct (elems r); try discriminate; inversion H; subst;
          constructor; auto; try (left; reflexivity); right; apply Ho; reflexivity.
  Qed.

  Lemma no_nil_wf : forall A (f : A -> rvalue) l,
    Forall (fun x => nil_or_wf (f x)) l -> existsb (fun x => is_nil (f x)) l = false ->
    forallb (fun x => wf T (f x)) l = true.
  Proof.
    induction 1 as [|x r Hx _ IH]; simpl; intros E; auto.
    apply orb_false_iff in E. destruct E as [E1 E2].
    destruct Hx as [Hn | Hw]; [rewrite Hn in E1; discriminate|]. rewrite Hw, IH; auto.
  Qed.

  Lemma dec_map_wf : forall a m, ann_ok a -> dec_map a = Some m -> wf_map T m = true.
  Proof.
    intros a m Ha H. destruct a; simpl in H; try discriminate.
    - inversion H; reflexivity.
    - destruct (map_entries l) as [es|] eqn:E; try discriminate.
      destruct (existsb _ (dedup_last es)) eqn:E2; try discriminate. inversion H; subst.
      unfold wf_map. rewrite dedup_last_nodup, andb_true_r.
      apply no_nil_wf; auto.
      assert (F : Forall nil_or_wf (map snd es)).
      { apply (elems_nil_or_wf (map snd l)); [apply Forall_map, ann_ok_obj, Ha|].
        rewrite <- map_entries_elems, E. reflexivity. }
      rewrite Forall_map in F. apply (incl_Forall (dedup_last_sub _ es) F).
  Qed.

  Lemma wf_map_split : forall m, wf_map T m = true ->
    forallb (fun kv => wf T (snd kv)) m = true /\ nodup_keys m = true.
  Proof. intros m H. apply andb_true_iff in H. auto. Qed.

  Lemma conv_int_sound : forall a x, ann_ok a -> conv_int a = Some (Some x) -> in_i64b x = true.
  Proof.
    intros a x _ H. destruct a; simpl in H; try discriminate.
    destruct (in_i64b z) eqn:E; inversion H; subst; auto.
  Qed.

  Lemma conv_float_sound : forall a x, ann_ok a -> conv_float a = Some (Some x) -> f_finite x = true.
  Proof.
    intros a x _ H. destruct a as [| |z|b| | |]; simpl in H; try discriminate.
    - destruct (z2f z) as [n|]; try discriminate.
      destruct (f_finite n) eqn:E; inversion H; subst; auto.
    - destruct (f_finite b) eqn:E; inversion H; subst; auto.
  Qed.

  Lemma conv_list_sound : forall a l, ann_ok a -> conv_list a = Some (Some l) -> Forall nil_or_wf l.
  Proof.
    intros a l Ha H. destruct a; simpl in H; try discriminate.
    - inversion H. constructor.
    - destruct (elems l0) eqn:E; try discriminate. inversion H; subst.
      eapply elems_nil_or_wf; [apply ann_ok_arr, Ha | exact E].
  Qed.

  Lemma conv_dict_sound : forall a m, ann_ok a -> conv_dict a = Some (Some m) -> wf_map T m = true.
  Proof.
    intros a m Ha H. unfold conv_dict in H.
    destruct (dec_map a) eqn:E; inversion H; subst. exact (dec_map_wf a m Ha E).
  Qed.

  Lemma last_opt_In : forall A (l : list A) x, last_opt l = Some x -> In x l.
  Proof.
    intros A l x H. unfold last_opt in H. apply in_rev.
    destruct (rev l); inversion H. left; reflexivity.
  Qed.

  (* the heart of C10: whatever the document, a successful decoding is well-formed *)
  Lemma dec_value_wf : forall a r, ann_ok a -> dec_value T a = Some r -> wf T r = true.
  Proof.
    intros a r Ha H. unfold dec_value in H.
    destruct (obj_entries a) as [fs|] eqn:Efs; try discriminate.
    pose proof (obj_entries_ok a fs Ha Efs) as Hfs.
    destruct (assign conv_int 0%Z (field_vals (dk_t T) fs)) as [t|]; try discriminate.
    destruct (dispatch T t) as [k|] eqn:Ek; try discriminate.
    apply dispatch_sound in Ek. subst t.
    pose proof (field_vals_ok (dk_v T) fs Hfs) as Hvs.
    assert (Hin : forall inner, inner_entries (field_vals (dk_v T) fs) = Some inner -> entries_ok inner)
      by exact (inner_entries_ok _ Hvs).
    destruct k; cbn [kind_tag] in H;
      try (destruct (inner_entries (field_vals (dk_v T) fs)) as [inner|]; try discriminate;
           specialize (Hin inner eq_refl)).
    - destruct (assign conv_int 0%Z (field_vals (dk_v T) fs)) as [z|] eqn:Ez; inversion H.
      simpl. rewrite Z.eqb_refl. refine (assign_inv _ _ _ _ conv_int_sound _ Hvs _ _ _ Ez). reflexivity.
    - destruct (assign conv_float 0%N (field_vals (dk_v T) fs)) as [b|] eqn:Ez; inversion H.
      simpl. rewrite Z.eqb_refl. refine (assign_inv _ _ _ _ conv_float_sound _ Hvs _ _ _ Ez). reflexivity.
    - destruct (assign conv_str EmptyString (field_vals (dk_v T) fs)); inversion H.
      simpl. apply Z.eqb_refl.
    - inversion H. simpl. apply Z.eqb_refl.
    - destruct (assign conv_str EmptyString (field_vals (dk_cexpr T) inner)) as [e|]; try discriminate.
      destruct (last_opt (field_vals (dk_cattrs T) inner)) as [raw|] eqn:El.
      + destruct (dec_map raw) as [m|] eqn:Em; inversion H.
        simpl. rewrite Z.eqb_refl. refine (dec_map_wf raw m _ Em).
        exact (proj1 (Forall_forall _ _) (field_vals_ok _ _ Hin) raw (last_opt_In _ _ _ El)).
      + inversion H. simpl. apply Z.eqb_refl.
    - destruct (assign conv_list [] (field_vals (dk_list T) inner)) as [l|] eqn:El; try discriminate.
      destruct (existsb is_nil l) eqn:En; inversion H.
      simpl. rewrite Z.eqb_refl. apply (no_nil_wf _ (fun x => x)); [|exact En].
      refine (assign_inv _ _ _ _ conv_list_sound _ (field_vals_ok _ _ Hin) _ _ _ El). constructor.
    - destruct (assign conv_dict [] (field_vals (dk_dict T) inner)) as [m|] eqn:Em; inversion H.
      simpl. rewrite Z.eqb_refl.
      refine (assign_inv _ _ _ _ conv_dict_sound _ (field_vals_ok _ _ Hin) _ _ _ Em). reflexivity.
    - destruct (assign conv_str EmptyString (field_vals (dk_fexpr T) inner)); try discriminate.
      destruct (assign conv_str EmptyString (field_vals (dk_fname T) inner)); try discriminate.
      destruct (assign conv_params None (field_vals (dk_fparams T) inner)); inversion H.
      simpl. apply Z.eqb_refl.
    - destruct (assign conv_str EmptyString (field_vals (dk_nname T) inner)) as [n|]; try discriminate.
      destruct (mem_str n (natives T)) eqn:En; inversion H.
      simpl. rewrite Z.eqb_refl, En. reflexivity.
    - destruct (assign conv_str EmptyString (field_vals (dk_oname T) inner)); inversion H.
      simpl. apply Z.eqb_refl.
  Qed.

  Lemma kids_annot : forall j,
    kids (annot T j) = map (fun x => (annot T x, dec_value T (annot T x))) (jkids j).
  Proof. destruct j; simpl; try reflexivity. rewrite !map_map. reflexivity. Qed.

  Lemma annot_ok : forall j, ann_ok (annot T j).
  Proof.
    induction j as [j IH] using json_kids_ind. constructor. rewrite kids_annot, Forall_map.
    eapply Forall_impl; [|exact IH].
    intros x Hx. split; [exact Hx|]. intros v Hv. exact (dec_value_wf _ v Hx Hv).
  Qed.

  Theorem of_json_wf : forall j r, of_json T j = Some r -> wf T r = true.
  Proof. intros j r H. eapply dec_value_wf; [apply annot_ok | exact H]. Qed.

  Theorem of_json_map_wf : forall j m, of_json_map T j = Some m -> wf_map T m = true.
  Proof. intros j m H. eapply dec_map_wf; [apply annot_ok | exact H]. Qed.
End Decoder.

Lemma field_vals_cons : forall f k a o fs,
  field_vals f ((k, (a, o)) :: fs) = if key_match k f then a :: field_vals f fs else field_vals f fs.
Proof. intros. unfold field_vals. simpl. destruct (key_match k f); reflexivity. Qed.

Lemma inner_entries_one : forall l, inner_entries [AObj l] = Some l.
Proof. intros. simpl. rewrite app_nil_r. reflexivity. Qed.

Definition enc_tag (T : json_tags) (k : kind) : Z :=
  match k with
  | KInt => e_int T | KFloat => e_float T | KStr => e_str T | KNull => e_null T
  | KComputed => e_computed T | KArray => e_array T | KDict => e_dict T | KFunc => e_func T
  | KNative => e_native T | KNObj => e_nobj T
  end.

(* tags_ok, conjunct by conjunct; tags_distinct is left out: dispatch_ok already makes kind_tag
   injective (kind_tag_inj) *)
Record agree (T : json_tags) : Prop := {
  ag_dispatch : forall k, dispatch T (kind_tag T k) = Some k;
  ag_enc : forall k, enc_tag T k = kind_tag T k;
  ag_range : forall k, in_i64b (kind_tag T k) = true;
  km_tt : key_match (ek_t T) (dk_t T) = true;
  km_vt : key_match (ek_v T) (dk_t T) = false;
  km_vv : key_match (ek_v T) (dk_v T) = true;
  km_tv : key_match (ek_t T) (dk_v T) = false;
  km_ce : key_match (ek_cexpr T) (dk_cexpr T) = true;
  km_ae : key_match (ek_cattrs T) (dk_cexpr T) = false;
  km_aa : key_match (ek_cattrs T) (dk_cattrs T) = true;
  km_ea : key_match (ek_cexpr T) (dk_cattrs T) = false;
  km_list : key_match (ek_list T) (dk_list T) = true;
  km_dict : key_match (ek_dict T) (dk_dict T) = true;
  km_fee : key_match (ek_fexpr T) (dk_fexpr T) = true;
  km_fne : key_match (ek_fname T) (dk_fexpr T) = false;
  km_fpe : key_match (ek_fparams T) (dk_fexpr T) = false;
  km_fnn : key_match (ek_fname T) (dk_fname T) = true;
  km_fen : key_match (ek_fexpr T) (dk_fname T) = false;
  km_fpn : key_match (ek_fparams T) (dk_fname T) = false;
  km_fpp : key_match (ek_fparams T) (dk_fparams T) = true;
  km_fep : key_match (ek_fexpr T) (dk_fparams T) = false;
  km_fnp : key_match (ek_fname T) (dk_fparams T) = false;
  km_nn : key_match (ek_nname T) (dk_nname T) = true;
  km_oo : key_match (ek_oname T) (dk_oname T) = true
}.

Lemma dispatch_ok_spec : forall T, dispatch_ok T = true -> forall k, dispatch T (kind_tag T k) = Some k.
Proof.
  intros T H k. unfold dispatch_ok in H. rewrite forallb_forall in H.
  assert (Hin : In k [KInt; KFloat; KStr; KNull; KComputed; KArray; KDict; KFunc; KNative; KNObj])
    by (destruct k; simpl; tauto).
  specialize (H k Hin). destruct (dispatch T (kind_tag T k)) as [k'|]; try discriminate.
  destruct k, k'; simpl in H; try discriminate; reflexivity.
Qed.

Lemma tags_agree : forall T, tags_ok T = true -> agree T.
Proof.
  intros T H. unfold tags_ok in H.
  repeat (apply andb_prop in H; destruct H as [H ?]).
  constructor; try assumption; try (apply negb_true_iff; assumption).
  - apply dispatch_ok_spec; assumption.
  - destruct k; apply Z.eqb_eq; assumption.
  - destruct k; assumption.
Qed.

Section Roundtrip.
  Variable T : json_tags.
  Hypothesis Hok : tags_ok T = true.

  Lemma ag : agree T.
  Proof. exact (tags_agree T Hok). Qed.

  Definition ann1 (x : json) := (annot T x, dec_value T (annot T x)).
  Definition ann2 (kv : string * json) := (fst kv, (annot T (snd kv), dec_value T (annot T (snd kv)))).

  Lemma annot_obj : forall l, annot T (JObj l) = AObj (map ann2 l).
  Proof. reflexivity. Qed.
  Lemma annot_arr : forall l, annot T (JArr l) = AArr (map ann1 l).
  Proof. reflexivity. Qed.

  Lemma tag_read : forall k, assign conv_int 0%Z [AInt (enc_tag T k)] = Some (kind_tag T k).
  Proof. intros k. simpl. rewrite (ag_enc T ag), (ag_range T ag). reflexivity. Qed.

  Lemma phase1 : forall k a o1 b o2, a = AInt (enc_tag T k) ->
    assign conv_int 0%Z (field_vals (dk_t T) [(ek_t T, (a, o1)); (ek_v T, (b, o2))]) = Some (kind_tag T k).
  Proof.
    intros k a o1 b o2 ->. rewrite !field_vals_cons, (km_tt T ag), (km_vt T ag). apply tag_read.
  Qed.

  Lemma fv_v2 : forall a o1 b o2, field_vals (dk_v T) [(ek_t T, (a, o1)); (ek_v T, (b, o2))] = [b].
  Proof. intros. rewrite !field_vals_cons, (km_tv T ag), (km_vv T ag). reflexivity. Qed.

  (* phase 1 reads the tag the encoder wrote for kind k, and the switch reaches case k *)
  Ltac head k :=
    unfold of_json; cbn [annot map fst snd]; unfold dec_value at 1; unfold obj_entries;
    rewrite (phase1 k) by reflexivity; rewrite fv_v2, (ag_dispatch T ag k).

  Lemma of_json_int : forall z, in_i64b z = true ->
    of_json T (JObj [(ek_t T, JInt (e_int T)); (ek_v T, JInt z)]) = Some (RInt (d_int T) z).
  Proof. intros z H. head KInt. simpl. rewrite H. reflexivity. Qed.

  Lemma of_json_float : forall b, f_finite b = true ->
    of_json T (JObj [(ek_t T, JInt (e_float T)); (ek_v T, JFloat b)]) = Some (RFloat (d_float T) b).
  Proof. intros b H. head KFloat. simpl. rewrite H. reflexivity. Qed.

  Lemma of_json_str : forall s,
    of_json T (JObj [(ek_t T, JInt (e_str T)); (ek_v T, JStr s)]) = Some (RStr (d_str T) s).
  Proof. intros. head KStr. reflexivity. Qed.

  (* the one kind written without a "v" entry: phase 1 on a single entry *)
  Lemma of_json_null : of_json T (JObj [(ek_t T, JInt (e_null T))]) = Some (RNone (d_null T)).
  Proof.
    unfold of_json, dec_value. cbn [annot obj_entries map fst snd].
    rewrite field_vals_cons, (km_tt T ag). cbn [field_vals filter map].
    change (e_null T) with (enc_tag T KNull).
    rewrite (tag_read KNull), (ag_dispatch T ag KNull). reflexivity.
  Qed.

  Lemma of_json_arr : forall js,
    of_json T (JObj [(ek_t T, JInt (e_array T)); (ek_v T, JObj [(ek_list T, JArr js)])]) =
    match elems (map ann1 js) with
    | None => None
    | Some l' => if existsb is_nil l' then None else Some (RArr (d_array T) l')
    end.
  Proof.
    intros. head KArray. rewrite inner_entries_one, field_vals_cons, (km_list T ag).
    cbn [assign conv_list]. fold ann1. destruct (elems (map ann1 js)); reflexivity.
  Qed.

  Lemma of_json_dict : forall js,
    of_json T (JObj [(ek_t T, JInt (e_dict T)); (ek_v T, JObj [(ek_dict T, JObj js)])]) =
    option_map (RDict (d_dict T)) (dec_map (AObj (map ann2 js))).
  Proof.
    intros. head KDict. rewrite inner_entries_one, field_vals_cons, (km_dict T ag).
    cbn [assign]. unfold conv_dict. fold ann2. destruct (dec_map (AObj (map ann2 js))); reflexivity.
  Qed.

  Lemma of_json_comp0 : forall e,
    of_json T (JObj [(ek_t T, JInt (e_computed T)); (ek_v T, JObj [(ek_cexpr T, JStr e)])]) =
    Some (RComputed (d_computed T) e None).
  Proof.
    intros. head KComputed.
    rewrite inner_entries_one, !field_vals_cons, (km_ce T ag), (km_ea T ag). reflexivity.
  Qed.

  Lemma of_json_comp : forall e js,
    of_json T (JObj [(ek_t T, JInt (e_computed T));
                     (ek_v T, JObj [(ek_cexpr T, JStr e); (ek_cattrs T, JObj js)])]) =
    match dec_map (AObj (map ann2 js)) with
    | None => None
    | Some m => Some (RComputed (d_computed T) e (Some m))
    end.
  Proof.
    intros. head KComputed.
    rewrite inner_entries_one, !field_vals_cons, (km_ce T ag), (km_ea T ag), (km_ae T ag), (km_aa T ag).
    reflexivity.
  Qed.

  Lemma str_elems_jstrs : forall l, str_elems (map ann1 (map JStr l)) = Some l.
  Proof. induction l as [|x r IH]; simpl; auto. simpl in IH. rewrite IH. reflexivity. Qed.

  Lemma of_json_func : forall n p e,
    of_json T (JObj [(ek_t T, JInt (e_func T));
                     (ek_v T, JObj [(ek_fexpr T, JStr e); (ek_fname T, JStr n);
                                    (ek_fparams T, match p with None => JNull | Some l => jstrs l end)])]) =
    Some (RFunc (d_func T) n p e).
  Proof.
    intros. head KFunc. rewrite inner_entries_one, !field_vals_cons.
    rewrite (km_fee T ag), (km_fne T ag), (km_fpe T ag), (km_fen T ag), (km_fnn T ag), (km_fpn T ag),
      (km_fep T ag), (km_fnp T ag), (km_fpp T ag).
    cbn [assign conv_str].
    destruct p as [l|]; [|reflexivity].
    unfold jstrs. cbn [annot assign conv_params]. fold ann1. rewrite str_elems_jstrs. reflexivity.
  Qed.

  Lemma of_json_native : forall n, mem_str n (natives T) = true ->
    of_json T (JObj [(ek_t T, JInt (e_native T)); (ek_v T, JObj [(ek_nname T, JStr n)])]) =
    Some (RNative (d_native T) n).
  Proof.
    intros n H. head KNative. rewrite inner_entries_one, field_vals_cons, (km_nn T ag).
    cbn [assign conv_str field_vals filter map]. rewrite H. reflexivity.
  Qed.

  Lemma of_json_nobj : forall n,
    of_json T (JObj [(ek_t T, JInt (e_nobj T)); (ek_v T, JObj [(ek_oname T, JStr n)])]) =
    Some (RNObj (d_nobj T) n).
  Proof.
    intros. head KNObj. rewrite inner_entries_one, field_vals_cons, (km_oo T ag). reflexivity.
  Qed.

  (* the round trip for one value, in the form the induction needs: the text is an object, and
     decoding it gives exactly embed T v (same ids, same entry order) *)
  Definition rt (v : value) : Prop :=
    tree_value T v = true -> finite_floats v = true ->
    exists l, to_json T v = Some (JObj l) /\ of_json T (JObj l) = Some (embed T v).

  Lemma embed_not_nil : forall v, is_nil (embed T v) = false.
  Proof. destruct v; try reflexivity. destruct attrs; reflexivity. Qed.

  Lemma items_rt : forall l, Forall rt l ->
    forallb (tree_value T) l = true -> forallb finite_floats l = true ->
    exists js, to_json_items T l = Some js /\ elems (map ann1 js) = Some (map (embed T) l).
  Proof.
    induction 1 as [|x r Hx Hr IH]; simpl; intros Ht Hf.
    - exists []. split; reflexivity.
    - apply andb_true_iff in Ht. apply andb_true_iff in Hf. destruct Ht as [Ht1 Ht2], Hf as [Hf1 Hf2].
      destruct (Hx Ht1 Hf1) as (lx & E1 & E2). destruct (IH Ht2 Hf2) as (js & E3 & E4).
      rewrite E1, E3. eexists. split; [reflexivity|].
      cbn [map]. unfold ann1 at 1. unfold of_json in E2. rewrite E2.
      cbn [annot elems]. rewrite E4. reflexivity.
  Qed.

  Lemma entries_rt : forall l, Forall (fun kv => rt (snd kv)) l ->
    forallb (fun kv => tree_value T (snd kv)) l = true ->
    forallb (fun kv => finite_floats (snd kv)) l = true ->
    exists js, to_json_entries T l = Some js /\
               map_entries (map ann2 js) = Some (map (fun kv => (fst kv, embed T (snd kv))) l).
  Proof.
    induction 1 as [|[k x] r Hx Hr IH]; simpl; intros Ht Hf.
    - exists []. split; reflexivity.
    - apply andb_true_iff in Ht. apply andb_true_iff in Hf. destruct Ht as [Ht1 Ht2], Hf as [Hf1 Hf2].
      simpl in Hx. destruct (Hx Ht1 Hf1) as (lx & E1 & E2). destruct (IH Ht2 Hf2) as (js & E3 & E4).
      rewrite E1, E3. eexists. split; [reflexivity|].
      cbn [map]. unfold ann2 at 1. cbn [fst snd]. unfold of_json in E2. rewrite E2.
      cbn [annot map_entries]. rewrite E4. reflexivity.
  Qed.

  Lemma has_key_map : forall A B (f : A -> B) k (l : list (string * A)),
    has_key k (map (fun kv => (fst kv, f (snd kv))) l) = has_key k l.
  Proof. induction l as [|[k' v] r IH]; simpl; auto. rewrite IH. reflexivity. Qed.

  Lemma nodup_keys_map : forall A B (f : A -> B) (l : list (string * A)),
    nodup_keys (map (fun kv => (fst kv, f (snd kv))) l) = nodup_keys l.
  Proof. induction l as [|[k v] r IH]; simpl; auto. rewrite has_key_map, IH. reflexivity. Qed.

  Lemma existsb_map_false : forall A B (p : B -> bool) (f : A -> B) l,
    (forall x, p (f x) = false) -> existsb p (map f l) = false.
  Proof. intros A B p f l H. induction l as [|x r IH]; simpl; auto. rewrite H, IH. reflexivity. Qed.

  Lemma dec_map_rt : forall js (l : list (string * value)),
    nodup_keys l = true ->
    map_entries (map ann2 js) = Some (map (fun kv => (fst kv, embed T (snd kv))) l) ->
    dec_map (AObj (map ann2 js)) = Some (map (fun kv => (fst kv, embed T (snd kv))) l).
  Proof.
    intros js l Hn E. unfold dec_map. rewrite E.
    rewrite dedup_last_id by (rewrite nodup_keys_map; exact Hn).
    rewrite existsb_map_false by (intros kv; apply embed_not_nil). reflexivity.
  Qed.

  Theorem json_roundtrip_strong : forall v, rt v.
  Proof.
    induction v as [v H] using value_kids_ind.
    destruct v as [z|b|s| |l|l|n p e|e [l|]|n|n]; cbn [vkids] in H; unfold rt; intros Ht Hf.
    - simpl in Ht. eexists. split; [reflexivity|]. apply of_json_int; auto.
    - simpl in Hf. simpl. rewrite Hf. eexists. split; [reflexivity|]. apply of_json_float; auto.
    - eexists. split; [reflexivity|]. apply of_json_str.
    - eexists. split; [reflexivity|]. apply of_json_null.
    - simpl in Ht, Hf. destruct (items_rt l H Ht Hf) as (js & E1 & E2).
      unfold to_json_items in E1. cbn [to_json]. rewrite E1. eexists. split; [reflexivity|].
      rewrite of_json_arr, E2, existsb_map_false by apply embed_not_nil. reflexivity.
    - simpl in Ht, Hf. apply andb_true_iff in Ht. destruct Ht as [Ht Hn]. rewrite Forall_map in H.
      destruct (entries_rt l H Ht Hf) as (js & E1 & E2).
      unfold to_json_entries in E1. cbn [to_json]. rewrite E1. eexists. split; [reflexivity|].
      rewrite of_json_dict, (dec_map_rt js l Hn E2). reflexivity.
    - eexists. split; [reflexivity|]. apply of_json_func.
    - simpl in Ht, Hf. apply andb_true_iff in Ht. destruct Ht as [Ht Hn]. rewrite Forall_map in H.
      destruct (entries_rt l H Ht Hf) as (js & E1 & E2).
      unfold to_json_entries in E1. cbn [to_json]. rewrite E1. eexists. split; [reflexivity|].
      rewrite of_json_comp, (dec_map_rt js l Hn E2). reflexivity.
    - eexists. split; [reflexivity|]. apply of_json_comp0.
    - simpl in Ht. eexists. split; [reflexivity|]. apply of_json_native; auto.
    - eexists. split; [reflexivity|]. apply of_json_nobj.
  Qed.

  Lemma lookup_self_in : forall A k (v : A) l, nodup_keys l = true -> In (k, v) l -> lookup k l = Some v.
  Proof.
    induction l as [|[k' v'] r IH]; simpl; intros Hn Hin; [tauto|].
    destruct (has_key k' r) eqn:E; try discriminate.
    destruct Hin as [Heq | Hin].
    - inversion Heq; subst. rewrite String.eqb_refl. reflexivity.
    - destruct (String.eqb_spec k k'); [|auto].
      subst. rewrite (in_has_key _ _ _ _ Hin) in E. discriminate.
  Qed.

  Lemma list_eqb_refl : forall A (f : A -> A -> bool) l,
    Forall (fun x => f x x = true) l -> list_eqb f l l = true.
  Proof. induction 1 as [|x r Hx _ IH]; simpl; auto. rewrite Hx, IH. reflexivity. Qed.

  Lemma sub_map_refl : forall (l : list (string * rvalue)),
    Forall (fun x => req x x = true) (map snd l) -> nodup_keys l = true -> sub_map req l l = true.
  Proof.
    intros l HF Hn. unfold sub_map. apply forallb_forall. intros [k x] Hin.
    rewrite (lookup_self_in _ k x l Hn Hin). rewrite Forall_map, Forall_forall in HF. exact (HF (k, x) Hin).
  Qed.

  Lemma req_refl_wf : forall r, wf T r = true -> req r r = true.
  Proof.
    induction r as [r IH] using rvalue_kids_ind; intros Hw.
    pose proof (Forall_mp _ _ _ _ IH (wf_kids T r Hw)) as Hk.
    destruct r as [| | | | |t l|t l|t n p e|t e [l|]| |]; simpl;
      rewrite ?Z.eqb_refl, ?N.eqb_refl, ?String.eqb_refl, ?Nat.eqb_refl; simpl; auto.
    - apply list_eqb_refl, Hk.
    - apply wf_dict, wf_map_spec in Hw. apply sub_map_refl; [exact Hk | apply Hw].
    - destruct p; simpl; auto. rewrite list_eqb_refl; [reflexivity|].
      apply Forall_forall. intros x _. apply String.eqb_refl.
    - apply wf_comp, wf_map_spec in Hw. apply sub_map_refl; [exact Hk | apply Hw].
  Qed.

  (* C09: serialise, then decode: a structurally equal value *)
  Theorem json_roundtrip : forall v, tree_value T v = true -> finite_floats v = true ->
    exists j v', to_json T v = Some j /\ of_json T j = Some v' /\ equal T v v'.
  Proof.
    intros v Ht Hf. destruct (json_roundtrip_strong v Ht Hf) as (l & E1 & E2).
    exists (JObj l), (embed T v). repeat split; auto.
    unfold equal. apply req_refl_wf. eapply of_json_wf; eauto.
  Qed.

  (* the same for a whole variable map (ValueMap.ToJSON / UnmarshalJSON) *)
  Theorem json_map_roundtrip : forall (m : list (string * value)),
    forallb (fun kv => tree_value T (snd kv)) m = true -> nodup_keys m = true ->
    forallb (fun kv => finite_floats (snd kv)) m = true ->
    exists j, to_json_map T m = Some j /\
              of_json_map T j = Some (map (fun kv => (fst kv, embed T (snd kv))) m).
  Proof.
    intros m Ht Hn Hf.
    assert (HF : Forall (fun kv => rt (snd kv)) m).
    { apply Forall_forall. intros kv _. apply json_roundtrip_strong. }
    destruct (entries_rt m HF Ht Hf) as (js & E1 & E2).
    unfold to_json_map. rewrite E1. eexists. split; [reflexivity|].
    unfold of_json_map. rewrite annot_obj. apply dec_map_rt; auto.
  Qed.

  Definition has_nonfinite (v : value) : bool := negb (finite_floats v).

  Lemma map_opt_none : forall A B (f : A -> option B) l x, In x l -> f x = None -> map_opt f l = None.
  Proof.
    induction l as [|y r IH]; simpl; intros x Hin Hx; [tauto|].
    destruct Hin as [-> | Hin]; [rewrite Hx; reflexivity|].
    destruct (f y); auto. rewrite (IH x Hin Hx). reflexivity.
  Qed.

  Lemma forallb_false_In : forall A (p : A -> bool) l,
    forallb p l = false -> exists x, In x l /\ p x = false.
  Proof.
    induction l as [|x r IH]; simpl; intros H; try discriminate.
    apply andb_false_iff in H. destruct H as [H|H]; [exists x; auto|].
    destruct (IH H) as (y & Hy & Hy2). exists y; auto.
  Qed.

  Lemma to_json_entries_none : forall l,
    Forall (fun x => finite_floats x = false -> to_json T x = None) (map snd l) ->
    forallb (fun kv => finite_floats (snd kv)) l = false -> to_json_entries T l = None.
  Proof.
    intros l H Hf. destruct (forallb_false_In _ _ _ Hf) as ([k x] & Hin & Hx).
    apply (map_opt_none _ _ _ l (k, x) Hin). rewrite Forall_map, Forall_forall in H.
    cbn beta iota. rewrite (H (k, x) Hin Hx : to_json T x = None). reflexivity.
  Qed.

  Theorem nonfinite_is_error : forall v, finite_floats v = false -> to_json T v = None.
  Proof.
    induction v as [v H] using value_kids_ind.
    destruct v as [z|b|s| |l|l|n p e|e [l|]|n|n]; cbn [vkids] in H; simpl; intros Hf; try discriminate.
    - rewrite Hf. reflexivity.
    - destruct (forallb_false_In _ _ _ Hf) as (x & Hin & Hx). rewrite Forall_forall in H.
      rewrite (map_opt_none _ _ (to_json T) l x Hin (H x Hin Hx)). reflexivity.
    - fold (to_json_entries T l). rewrite (to_json_entries_none l H Hf). reflexivity.
    - fold (to_json_entries T l). rewrite (to_json_entries_none l H Hf). reflexivity.
  Qed.

  Definition notrap {A} (o : outcome A) : Prop := match o with Trap => False | Done _ => True end.

  Lemma kind_tag_inj : forall k1 k2, kind_tag T k1 = kind_tag T k2 -> k1 = k2.
  Proof.
    intros k1 k2 H. pose proof (ag_dispatch T ag k1) as H1. pose proof (ag_dispatch T ag k2) as H2.
    rewrite H in H1. rewrite H1 in H2. inversion H2; auto.
  Qed.

  Definition ctor_kind (r : rvalue) : option kind :=
    match r with
    | RNil => None | RNone _ => Some KNull | RInt _ _ => Some KInt | RFloat _ _ => Some KFloat
    | RStr _ _ => Some KStr | RArr _ _ => Some KArray | RDict _ _ => Some KDict
    | RFunc _ _ _ _ => Some KFunc | RComputed _ _ _ => Some KComputed
    | RNative _ _ => Some KNative | RNObj _ _ => Some KNObj
    end.

  Lemma wf_tag : forall r, wf T r = true ->
    exists k, ctor_kind r = Some k /\ tag_of r = Some (kind_tag T k).
  Proof.
    destruct r; simpl; intros H; try discriminate;
      try (destruct attrs); repeat (apply andb_true_iff in H; destruct H as [H ?]);
        apply Z.eqb_eq in H; subst; eexists; split; reflexivity.
  Qed.

  Lemma notrap_obind : forall A B (o : outcome A) (g : A -> outcome B),
    notrap o -> (forall a, notrap (g a)) -> notrap (obind o g).
  Proof. intros A B [a|] g Ho Hg; [apply Hg | exact Ho]. Qed.

  Lemma all_unit_ok : forall A (f : A -> outcome unit) l,
    Forall (fun x => notrap (f x)) l -> notrap (all_unit f l).
  Proof.
    induction 1 as [|x r Hx _ IH]; simpl; [exact I|]. apply notrap_obind; [exact Hx | intros _; exact IH].
  Qed.

  Lemma all_json_ok : forall A (f : A -> outcome jres) l,
    Forall (fun x => notrap (f x)) l -> notrap (all_json f l).
  Proof.
    induction 1 as [|x r Hx _ IH]; simpl; [exact I|].
    apply notrap_obind; [exact Hx | intros []; [exact IH | exact I]].
  Qed.

  Lemma all_bool_ok : forall A (f : A -> outcome bool) l,
    Forall (fun x => notrap (f x)) l -> notrap (all_bool f l).
  Proof.
    induction 1 as [|x r Hx _ IH]; simpl; [exact I|].
    apply notrap_obind; [exact Hx | intros []; [exact IH | exact I]].
  Qed.

  Lemma all_eq2_ok : forall (f : rvalue -> rvalue -> outcome bool) l m,
    Forall (fun x => forall y, y = RNil \/ wf T y = true -> notrap (f x y)) l ->
    Forall (fun y => wf T y = true) m -> notrap (all_eq2 f l m).
  Proof.
    intros f l m HF. revert m. induction HF as [|x r Hx _ IH]; intros m Hm; simpl; [exact I|].
    destruct Hm as [|y s Hy Hs]; [exact I|].
    apply notrap_obind; [exact (Hx y (or_intror Hy)) | intros []; [exact (IH s Hs) | exact I]].
  Qed.

  Lemma lookup_wf : forall k (m : list (string * rvalue)) y,
    wf_map T m = true -> lookup k m = Some y -> wf T y = true.
  Proof.
    intros k m y Hw. apply wf_map_spec, proj1 in Hw.
    induction Hw as [|[k' v] r Hv _ IH]; simpl; intros H; try discriminate.
    destruct (String.eqb k k'); [inversion H; subst; auto | auto].
  Qed.

  (* The observers on a well-formed value: the tag reaches the case of the value's own constructor,
     so every type assertion succeeds; Hk says the observer does not trap on the children. *)
  Lemma wf_to_string : forall r, wf T r = true -> notrap (r_to_string T r).
  Proof.
    induction r as [r IH] using rvalue_kids_ind; intros Hw.
    pose proof (Forall_mp _ _ _ _ IH (wf_kids T r Hw)) as Hk.
    destruct (wf_tag _ Hw) as (k & Hc & Ht).
    destruct r; simpl in Hc; inversion Hc; subst k;
      unfold r_to_string; fold r_to_string; rewrite Ht, (ag_dispatch T ag); simpl; auto.
    - apply all_unit_ok, Hk.
    - apply all_unit_ok. exact (Forall_snd _ _ _ _ _ Hk (fun _ _ Hx => Hx)).
  Qed.

  Lemma wf_to_json : forall r, wf T r = true -> notrap (r_to_json T r).
  Proof.
    induction r as [r IH] using rvalue_kids_ind; intros Hw.
    pose proof (Forall_mp _ _ _ _ IH (wf_kids T r Hw)) as Hk.
    destruct (wf_tag _ Hw) as (k & Hc & Ht).
    destruct r as [| | | | | | | |t e [l|]| |]; simpl in Hc; inversion Hc; subst k;
      unfold r_to_json; fold r_to_json; rewrite Ht, (ag_dispatch T ag); simpl; auto.
    - apply all_json_ok, Hk.
    - apply all_json_ok. exact (Forall_snd _ _ _ _ _ Hk (fun _ _ Hx => Hx)).
    - apply all_json_ok. exact (Forall_snd _ _ _ _ _ Hk (fun _ _ Hx => Hx)).
  Qed.

  Lemma wf_truthy : forall r, wf T r = true -> notrap (r_truthy T r).
  Proof.
    intros r Hw. destruct (wf_tag _ Hw) as (k & Hk & Ht). unfold r_truthy. rewrite Ht, (ag_dispatch T ag).
    destruct r; simpl in Hk; inversion Hk; subst; simpl; auto.
  Qed.

  (* Equal tags mean equal kinds (kind_tag_inj), so a well-formed b has the constructor of a:
     the type assertions on both payloads succeed, and the element loops see well-formed or
     (for a missing dict key) nil arguments. *)
  Lemma wf_equal : forall a, wf T a = true ->
    forall b, b = RNil \/ wf T b = true -> notrap (r_equal T a b).
  Proof.
    induction a as [a IH] using rvalue_kids_ind; intros Hw bb Hb.
    pose proof (Forall_mp _ _ _ _ IH (wf_kids T a Hw)) as Hk.
    destruct (wf_tag _ Hw) as (k & Hc & Ht).
    destruct a; simpl in Hc; try discriminate; unfold r_equal; fold r_equal; rewrite Ht.
    all: destruct Hb as [-> | Hb]; [exact I|].
    all: destruct (wf_tag _ Hb) as (kb & Hkb & Htb); rewrite Htb.
    all: destruct (Z.eqb_spec (kind_tag T k) (kind_tag T kb)) as [E|E]; [|exact I].
    all: apply kind_tag_inj in E; subst kb; cbn [negb]; rewrite (ag_dispatch T ag).
    all: inversion Hc; subst k; try exact I.
    all: destruct bb; simpl in Hkb; try discriminate; try exact I.
    - destruct (length l =? length l0)%nat; [|exact I].
      apply all_eq2_ok; [exact Hk | exact (wf_arr T _ _ Hb)].
    - destruct (length l =? length l0)%nat; [|exact I].
      apply wf_dict in Hb. apply all_bool_ok. refine (Forall_snd _ _ _ _ _ Hk _).
      intros k x Hx. apply Hx.
      destruct (lookup k l0) as [y|] eqn:El; [right; exact (lookup_wf k l0 y Hb El) | left; reflexivity].
  Qed.

  (* C10: on a well-formed value the modelled observers never hit a failed type assertion or
     a nil dereference *)
  Theorem wf_no_trap : forall r, wf T r = true ->
    notrap (r_to_string T r) /\ notrap (r_truthy T r) /\ notrap (r_to_json T r) /\
    (forall r2, wf T r2 = true -> notrap (r_equal T r r2) /\ notrap (r_equal T r2 r)).
  Proof.
    intros r Hw. repeat split.
    - apply wf_to_string; auto.
    - apply wf_truthy; auto.
    - apply wf_to_json; auto.
    - apply wf_equal; auto.
    - apply wf_equal; auto.
  Qed.
End Roundtrip.

Section Graph.
  Variable T : json_tags.
  Variable h : heap.
  Let n := length (wrappers h).

  (* Termination.  `save` holds the containers on the current path: wrapper ids below n without
     duplicates, hence at most n of them (inv_len).  A nested container call adds one id to the set
     and has one unit of fuel less, so `n < fuel + length save` is kept down the recursion; at fuel
     0 it would say n < length save, which inv excludes.  The top call has fuel S n and the empty
     set. *)
  Definition inv (save : list nat) : Prop := NoDup save /\ forall x, In x save -> x < n.

  Lemma inv_len : forall save, inv save -> length save <= n.
  Proof.
    intros save [Hnd Hb]. unfold n in *.
    rewrite <- (seq_length (length (wrappers h)) 0).
    apply NoDup_incl_length; auto.
    intros x Hx. apply in_seq. specialize (Hb x Hx). lia.
  Qed.

  Lemma mem_nat_false : forall x l, mem_nat x l = false -> ~ In x l.
  Proof.
    unfold mem_nat. intros x l H Hin.
    assert (existsb (Nat.eqb x) l = true) by (apply existsb_exists; exists x; split; auto; apply Nat.eqb_refl).
    congruence.
  Qed.

  Lemma del_nat_cons : forall w save, ~ In w save -> del_nat w (w :: save) = save.
  Proof.
    intros w save Hn. unfold del_nat. simpl. rewrite Nat.eqb_refl. simpl.
    induction save as [|x r IH]; simpl; auto.
    destruct (Nat.eqb_spec w x).
    - subst. exfalso. apply Hn. left; reflexivity.
    - simpl. rewrite IH; auto. intros Hin. apply Hn. right; auto.
  Qed.

  Lemma inv_cons : forall w save, inv save -> w < n -> ~ In w save -> inv (w :: save).
  Proof.
    intros w save [Hnd Hb] Hw Hn. split.
    - constructor; auto.
    - intros x [<- | Hx]; auto.
  Qed.

  (* what a successful call guarantees about the part of the graph below w *)
  Definition below_ok (save : list nat) (w : nat) : Prop :=
    forall x, reach h w x -> (children h x <> [] -> ~ In x save) /\ ~ on_cycle h x.

  (* ToJSONRaw with fuel f, and what the two loops assume of their `rec`: under the measure
     condition the fuel does not run out, and a success leaves the set as it was found *)
  Definition rec_spec (f : nat) (rec : list nat -> nat -> gres * list nat) : Prop :=
    forall save w, inv save -> n < f + length save ->
      fst (rec save w) <> GFuel /\
      (forall j, fst (rec save w) = GOk j -> snd (rec save w) = save /\ below_ok save w).

  Lemma g_items_spec : forall f rec, rec_spec f rec ->
    forall l save, inv save -> n < f + length save ->
      fst (g_items rec l save) <> LFuel /\
      (forall js, fst (g_items rec l save) = LOk js ->
                  snd (g_items rec l save) = save /\ forall c, In c l -> below_ok save c).
  Proof.
    intros f rec Hrec. induction l as [|x r IH]; intros save Hi Hb; simpl.
    - split; [discriminate|]. intros js _. split; [reflexivity|]. intros c [].
    - destruct (Hrec save x Hi Hb) as [H1 H2].
      destruct (rec save x) as [res s1] eqn:E. simpl in H1, H2.
      destruct res as [j| |]; simpl; try (split; [discriminate | intros; discriminate]).
      + destruct (H2 j eq_refl) as [Hs Hq]. subst s1.
        destruct (IH save Hi Hb) as [H3 H4].
        destruct (g_items rec r save) as [lr s2] eqn:E2. simpl in H3, H4.
        destruct lr as [js| |]; simpl.
        * split; [discriminate|]. intros js' _. destruct (H4 js eq_refl) as [Hs2 Hq2].
          split; auto. intros c [<- | Hc]; auto.
        * split; [discriminate | intros; discriminate].
        * exfalso. apply H3. reflexivity.
      + exfalso. apply H1. reflexivity.
  Qed.

  Lemma g_entries_items : forall rec l save,
    g_entries rec l save =
    (match fst (g_items rec (map snd l) save) with
     | LOk js => LOk (combine (map fst l) js) | LErr => LErr | LFuel => LFuel
     end, snd (g_items rec (map snd l) save)).
  Proof.
    intros rec. induction l as [|[k x] r IH]; intros save; simpl; [reflexivity|].
    destruct (rec save x) as [[j| |] s1]; try reflexivity.
    rewrite IH. destruct (g_items rec (map snd r) s1) as [[js| |] s2]; reflexivity.
  Qed.

  Lemma g_entries_spec : forall f rec, rec_spec f rec ->
    forall l save, inv save -> n < f + length save ->
      fst (g_entries rec l save) <> LFuel /\
      (forall js, fst (g_entries rec l save) = LOk js ->
                  snd (g_entries rec l save) = save /\ forall c, In c (map snd l) -> below_ok save c).
  Proof.
    intros f rec Hrec l save Hi Hb. rewrite g_entries_items. cbn [fst snd].
    destruct (g_items_spec f rec Hrec (map snd l) save Hi Hb) as [H1 H2].
    destruct (fst (g_items rec (map snd l) save)) as [js| |]; [|split; [|intros]; discriminate|tauto].
    split; [discriminate|]. intros _ _. exact (H2 js eq_refl).
  Qed.

  Lemma leaf_below : forall save w, children h w = [] -> below_ok save w.
  Proof.
    intros save w Hc x Hr. inversion Hr; subst.
    - split; [intros Hne; congruence|]. intros (c & Hin & _). rewrite Hc in Hin. inversion Hin.
    - rewrite Hc in H. inversion H.
  Qed.

  Lemma container_below : forall save w,
    ~ In w save ->
    (forall c, In c (children h w) -> below_ok (w :: save) c) ->
    below_ok save w.
  Proof.
    intros save w Hn Hch x Hr. inversion Hr; subst.
    - split; [intros _; exact Hn|].
      intros (c & Hin & Hrc). destruct (Hch c Hin x Hrc) as [Hns _].
      apply Hns; [|left; reflexivity].
      intros E. rewrite E in Hin. inversion Hin.
    - destruct (Hch c H x H0) as [Hns Hcy]. split; auto.
      intros Hne Hin. apply (Hns Hne). right; auto.
  Qed.

  (* entering a container w: its loop ran below (w :: save); on success w is deleted again *)
  Lemma container_spec : forall A (r : lres A * list nat) (ok : A -> json) (e : list nat -> list nat) save w,
    ~ In w save ->
    (fst r <> LFuel /\
     forall js, fst r = LOk js ->
       snd r = w :: save /\ forall c, In c (children h w) -> below_ok (w :: save) c) ->
    let res := match r with
               | (LOk js, s1) => (GOk (ok js), del_nat w s1)
               | (LErr, s1) => (GErr, e s1)
               | (LFuel, s1) => (GFuel, s1)
               end in
    fst res <> GFuel /\ forall j, fst res = GOk j -> snd res = save /\ below_ok save w.
  Proof.
    intros A [[js| |] s1] ok e save w Hn [H1 H2]; simpl in *.
    - split; [discriminate|]. intros j _. destruct (H2 js eq_refl) as [-> Hq].
      split; [apply del_nat_cons, Hn | apply container_below; assumption].
    - split; [discriminate | intros; discriminate].
    - exfalso. apply H1. reflexivity.
  Qed.

  Lemma graph_spec : forall fuel, rec_spec fuel (to_json_graph T h fuel).
  Proof.
    induction fuel as [|f IH]; intros save w Hi Hb.
    - exfalso. pose proof (inv_len save Hi). simpl in Hb. lia.
    - simpl. destruct (nth_error (wrappers h) w) as [c|] eqn:Ew.
      2:{ simpl. split; [discriminate | intros; discriminate]. }
      assert (Hwn : w < n) by (unfold n; apply nth_error_Some; congruence).
      assert (Hleaf : children h w = [] -> forall j,
                 GOk j <> GFuel /\ (forall j', GOk j = GOk j' -> save = save /\ below_ok save w)).
      { intros Hc j. split; [discriminate|]. intros j' _. split; auto. apply leaf_below; auto. }
      assert (Hin : ~ In w save -> inv (w :: save) /\ n < f + length (w :: save)).
      { intros Hn. split; [apply inv_cons; auto | simpl; lia]. }
      assert (Hch : children h w = match c with
                                   | WArr p => plist h p
                                   | WDict p | WComputed _ (Some p) => map snd (pmap h p)
                                   | _ => []
                                   end) by (unfold children; rewrite Ew; reflexivity).
      destruct c as [z|b|s| |p|p|e [p|]|nm ps e|nm|nm]; simpl; try (apply Hleaf, Hch).
      + destruct (f_finite b); simpl; [apply Hleaf, Hch | split; [discriminate | intros; discriminate]].
      + destruct (mem_nat w save) eqn:Em; simpl; [split; [discriminate | intros; discriminate]|].
        apply mem_nat_false in Em. apply container_spec; [exact Em|]. rewrite Hch.
        apply (g_items_spec f _ IH); apply Hin, Em.
      + destruct (mem_nat w save) eqn:Em; simpl; [split; [discriminate | intros; discriminate]|].
        apply mem_nat_false in Em. apply container_spec; [exact Em|]. rewrite Hch.
        apply (g_entries_spec f _ IH); apply Hin, Em.
      + destruct (mem_nat w save) eqn:Em; simpl; [split; [discriminate | intros; discriminate]|].
        apply mem_nat_false in Em. apply container_spec; [exact Em|]. rewrite Hch.
        apply (g_entries_spec f _ IH); apply Hin, Em.
  Qed.

  Lemma inv_nil : inv [].
  Proof. split; [constructor | intros x []]. Qed.

  (* ToJSON terminates within (number of wrappers + 1) nested calls, whatever the heap *)
  Theorem to_json_terminates : forall w, to_json_graph_top T h w <> GFuel.
  Proof.
    intros w. unfold to_json_graph_top.
    destruct (graph_spec (S n) [] w inv_nil) as [H _]; [simpl; lia | exact H].
  Qed.

  (* a cycle (through an array, a dict or computed attributes) anywhere below w is an error *)
  Theorem cycle_is_error : forall w x, reach h w x -> on_cycle h x -> to_json_graph_top T h w = GErr.
  Proof.
    intros w x Hr Hc. pose proof (to_json_terminates w) as Ht. unfold to_json_graph_top in *.
    destruct (graph_spec (S n) [] w inv_nil) as [_ H]; [simpl; lia|].
    fold n in Ht. destruct (fst (to_json_graph T h (S n) [] w)) as [j| |] eqn:E; auto.
    - destruct (H j eq_refl) as [_ Hq]. destruct (Hq x Hr) as [_ Hnc]. contradiction.
    - congruence.
  Qed.
End Graph.

Lemma actual_table_ok : tags_ok actual_table = true.
Proof. vm_compute. reflexivity. Qed.

Lemma decoded_no_trap : forall T, tags_ok T = true ->
  forall j v, of_json T j = Some v ->
    notrap (r_to_string T v) /\ notrap (r_truthy T v) /\ notrap (r_to_json T v) /\ notrap (r_equal T v v).
Proof.
  intros T Hok j v H. pose proof (of_json_wf T j v H) as Hw.
  destruct (wf_no_trap T Hok v Hw) as (H1 & H2 & H3 & H4). destruct (H4 v Hw) as [H5 _].
  repeat split; assumption.
Qed.

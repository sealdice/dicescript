(* Every program of the fragment of Model/Ast.v compiles (Model/Compile.v) to byte-code that the
   proved verifier's checker (Model/Verify.v `check`) accepts, hence (Proofs/VerifyProofs.v) to
   code that never gets stuck on ANY path of the shape machine of Model/Bytecode.v.

   Route: an explicit annotation `annot p` is defined by recursion on the syntax tree (abstract
   state before each instruction of `compile p`), and `check (to_shape (compile p)) (annot p)` is
   proved by induction on the tree, for code segments placed anywhere inside a larger program.
   The same induction records where control goes from every instruction (`jcl`): forward inside its
   statement, to the head or the exit of the enclosing loop, or back to the head of a loop around it.
   The inference (`infer` / `verify`) is not reasoned about here; Proofs/CompileInfer.v proves,
   from these two facts, that it accepts the same programs.

   The annotation is deliberately WEAK: statements are annotated as if they left nothing on the
   stack (a statement leaks the values it computes: one slot per expression statement, per `if`
   and per `while`; lower bounds absorb that, which is also what makes the loop head invariant),
   and the flags "a detail span exists" / "lastPop is set" are claimed only as far as they are known
   on entry (parameters dt / ls, both false for the program) or where the very next instruction needs
   them (ld.d, dice, push.last). *)
From Coq Require Import NArith ZArith List Bool String Lia.
From DS Require Import Model.Str Model.Value Model.VM Model.Ast Model.Compile.
From DS Require Import Model.Bytecode Model.Verify Proofs.VerifyProofs Proofs.CompileFacts.
Import ListNotations.
Open Scope nat_scope.
Local Notation length := List.length.

(* iota order of bytecode.go = order of the constructors of VM.opcode = order of Bytecode.mnemonics *)
Definition opnum (o : opcode) : N :=
  match o with
  | OpPushInt => 0 | OpPushFlt => 1 | OpPushStr => 2 | OpPushArr => 3 | OpPushDict => 4 | OpPushRange => 5
  | OpPushComputed => 6 | OpPushNull => 7 | OpPushThis => 8 | OpPushGlobal => 9 | OpPushFunc => 10
  | OpPushLast => 11 | OpPushDefExpr => 12
  | OpLdFs => 13 | OpLd => 14 | OpLdD => 15 | OpLdRaw => 16 | OpStore => 17 | OpStoreGlobal => 18 | OpStoreLocal => 19
  | OpInvoke => 20 | OpInvokeSelf => 21 | OpItemGet => 22 | OpItemSet => 23 | OpAttrGet => 24 | OpAttrSet => 25
  | OpSliceGet => 26 | OpSliceSet => 27
  | OpAdd => 28 | OpSub => 29 | OpMul => 30 | OpDiv => 31 | OpMod => 32 | OpPow => 33 | OpNullCoalescing => 34
  | OpLt => 35 | OpLe => 36 | OpEq => 37 | OpNe => 38 | OpGe => 39 | OpGt => 40
  | OpBitAnd => 41 | OpBitOr => 42 | OpAnd => 43 | OpOr => 44 | OpNeg => 45 | OpPos => 46
  | OpDiceInit => 47 | OpDiceSetTimes => 48 | OpDiceSetKeepLow => 49 | OpDiceSetKeepHigh => 50
  | OpDiceSetDropLow => 51 | OpDiceSetDropHigh => 52 | OpDiceSetMin => 53 | OpDiceSetMax => 54
  | OpDice => 55 | OpDiceCustom => 56
  | OpCocPenalty => 57 | OpCocBonus => 58 | OpDiceFate => 59 | OpDiceWod => 60 | OpWodInit => 61 | OpWodPool => 62
  | OpWodPoints => 63 | OpWodThreshold => 64 | OpWodThresholdQ => 65 | OpDiceDC => 66 | OpDcInit => 67
  | OpDcPool => 68 | OpDcPoints => 69 | OpHalt => 70 | OpMarkDetail => 71
  | OpPop => 72 | OpPopN => 73 | OpNop => 74 | OpJmp => 75 | OpJe => 76 | OpJne => 77 | OpJeDup => 78 | OpRet => 79
  | OpFstrPush => 80 | OpFstrPop => 81 | OpBlockPush => 82 | OpBlockPop => 83
  | OpStSet => 84 | OpStMod => 85 | OpStX0 => 86 | OpStX1 => 87
  | OpUnknown => 255            (* a CodeType without a name: no case in the switch *)
  end%N.

(* the Go dynamic type of ByteCode.Value *)
Definition shp_opd (o : VM.operand) : Bytecode.operand :=
  match o with
  | ONil => PNil | OInt z => PInt z | OFlt => PFloat | OStr _ => PStr | OSpan _ _ => PSpan
  | OSt _ _ => PSt | OFn _ => PFn | OCust => PCust | OBad => PBad
  end.

(* the fragment defines no functions: no instruction carries a body *)
Definition shp_instr (i : VM.instr) : Bytecode.instr :=
  Instr (opnum (VM.i_op i)) (mnemonic (opnum (VM.i_op i))) (shp_opd (VM.i_arg i)) None.

Definition to_shape (c : VM.code) : Bytecode.code := map shp_instr c.

Definition all_opcodes : list opcode :=
  [ OpPushInt; OpPushFlt; OpPushStr; OpPushArr; OpPushDict; OpPushRange; OpPushComputed; OpPushNull;
    OpPushThis; OpPushGlobal; OpPushFunc; OpPushLast; OpPushDefExpr;
    OpLdFs; OpLd; OpLdD; OpLdRaw; OpStore; OpStoreGlobal; OpStoreLocal;
    OpInvoke; OpInvokeSelf; OpItemGet; OpItemSet; OpAttrGet; OpAttrSet; OpSliceGet; OpSliceSet;
    OpAdd; OpSub; OpMul; OpDiv; OpMod; OpPow; OpNullCoalescing;
    OpLt; OpLe; OpEq; OpNe; OpGe; OpGt;
    OpBitAnd; OpBitOr; OpAnd; OpOr; OpNeg; OpPos;
    OpDiceInit; OpDiceSetTimes; OpDiceSetKeepLow; OpDiceSetKeepHigh; OpDiceSetDropLow; OpDiceSetDropHigh;
    OpDiceSetMin; OpDiceSetMax; OpDice; OpDiceCustom;
    OpCocPenalty; OpCocBonus; OpDiceFate; OpDiceWod; OpWodInit; OpWodPool; OpWodPoints; OpWodThreshold;
    OpWodThresholdQ; OpDiceDC; OpDcInit; OpDcPool; OpDcPoints; OpHalt; OpMarkDetail;
    OpPop; OpPopN; OpNop; OpJmp; OpJe; OpJne; OpJeDup; OpRet;
    OpFstrPush; OpFstrPop; OpBlockPush; OpBlockPop;
    OpStSet; OpStMod; OpStX0; OpStX1 ].
Example opnum_is_iota : map opnum all_opcodes = map N.of_nat (seq 0 88) /\ map (fun o => mnemonic (opnum o)) all_opcodes = mnemonics.
Proof. split; vm_compute; reflexivity. Qed.

Lemma to_shape_app a b : to_shape (a ++ b) = to_shape a ++ to_shape b.
Proof. apply map_app. Qed.
Lemma to_shape_len c : length (to_shape c) = length c.
Proof. apply map_length. Qed.
Lemma to_shape_names c : names_ok (to_shape c) = true.
Proof.
  induction c as [|i c IH]; [reflexivity|].
  unfold names_ok in *. cbn [to_shape map all_ok name_ok shp_instr]. rewrite String.eqb_refl. exact IH.
Qed.
Lemma to_shape_no_bodies c : count_bodies (to_shape c) = 0.
Proof. induction c as [|i c IH]; [reflexivity|]. unfold count_bodies in *. cbn. exact IH. Qed.


(* an abstract state without template blocks (Proofs/InferComplete.v calls this class `plain`): all the
   annotation of compiled code uses, since the fragment has no template strings *)
Definition st (lo : nat) (B : list nat) (d : nat) (dt ls : bool) : astate :=
  {| a_lo := lo; a_blocks := B; a_fb := []; a_fd := None; a_dice := d; a_det := dt; a_last := ls |}.

Lemma aleb_st a lo B d dt ls :
  lo <= a_lo a -> a_blocks a = B -> a_fb a = [] -> d <= a_dice a ->
  implb dt (a_det a) = true -> implb ls (a_last a) = true -> aleb a (st lo B d dt ls) = true.
Proof.
  intros Hlo <- Hfb Hd Hdt Hls. apply aleb_iff. cbn. rewrite Hfb. repeat split; auto using list_le_refl.
Qed.

Fixpoint at_seg {X} (L : list X) (p : nat) (seg : list X) : Prop :=
  match seg with
  | [] => True
  | x :: r => nth_error L p = Some x /\ at_seg L (S p) r
  end.

Lemma at_seg_app {X} (L : list X) l1 l2 p : at_seg L p (l1 ++ l2) <-> at_seg L p l1 /\ at_seg L (p + length l1) l2.
Proof.
  revert p. induction l1 as [|x r IH]; intro p; cbn [app at_seg length].
  - rewrite Nat.add_0_r. tauto.
  - rewrite IH. replace (S p + length r) with (p + S (length r)) by lia. tauto.
Qed.

Lemma at_seg_mid {X} (pre seg post : list X) : at_seg (pre ++ seg ++ post) (length pre) seg.
Proof.
  revert pre. induction seg as [|x r IH]; intro pre; cbn [at_seg]; [exact Logic.I|]. split.
  - rewrite nth_error_app2 by lia. rewrite Nat.sub_diag. reflexivity.
  - replace (pre ++ (x :: r) ++ post) with ((pre ++ [x]) ++ r ++ post) by (rewrite <- app_assoc; reflexivity).
    replace (S (length pre)) with (length (pre ++ [x])) by (rewrite app_length; cbn; lia).
    apply IH.
Qed.

Definition on_seg (P : nat -> Prop) (p pn : nat) : Prop := forall q, p <= q < pn -> P q.

Lemma on_seg_nil (P : nat -> Prop) p : on_seg P p p.
Proof. intros q Hq. lia. Qed.
Lemma on_seg_cons (P : nat -> Prop) p pn : P p -> on_seg P (S p) pn -> on_seg P p pn.
Proof. intros H1 H2 q Hq. destruct (Nat.eq_dec q p) as [->|]; [exact H1|apply H2; lia]. Qed.
Lemma on_seg_app (P : nat -> Prop) p m pn : on_seg P p m -> on_seg P m pn -> on_seg P p pn.
Proof. intros H1 H2 q Hq. destruct (Nat.lt_ge_cases q m); [apply H1|apply H2]; lia. Qed.
Lemma on_seg_mono (P Q : nat -> Prop) p pn : (forall q, p <= q < pn -> P q -> Q q) -> on_seg P p pn -> on_seg Q p pn.
Proof. intros H HP q Hq. apply H; [exact Hq|apply HP; exact Hq]. Qed.

Definition placed (C : Bytecode.code) (A : annotation) (p : nat) (c : VM.code) (a : annotation) (pn : nat) : Prop :=
  at_seg C p (to_shape c) /\ at_seg A p a /\ pn = p + length c.

Lemma at_code_app C p (c1 c2 : VM.code) :
  at_seg C p (to_shape (c1 ++ c2)) -> at_seg C p (to_shape c1) /\ at_seg C (p + length c1) (to_shape c2).
Proof. rewrite to_shape_app, at_seg_app, to_shape_len. tauto. Qed.

Lemma placed_app C A p c1 c2 a1 a2 pn :
  length a1 = length c1 -> placed C A p (c1 ++ c2) (a1 ++ a2) pn ->
  placed C A p c1 a1 (p + length c1) /\ placed C A (p + length c1) c2 a2 pn.
Proof.
  intros L (HC & HA & ->). apply at_code_app in HC as [HC1 HC2]. apply at_seg_app in HA as [HA1 HA2].
  rewrite L in HA2. rewrite app_length. repeat split; auto. lia.
Qed.

Lemma placed_cons C A p i c a r pn :
  placed C A p (i :: c) (a :: r) pn -> nth_error C p = Some (shp_instr i) /\ nth_error A p = Some a /\ placed C A (S p) c r pn.
Proof. intros ([H1 H2] & [H3 H4] & ->). repeat split; auto. cbn [length]. lia. Qed.

Lemma placed_end C A p c a pn : placed C A p c a pn -> pn = p + length c.
Proof. intros (_ & _ & H). exact H. Qed.

Lemma placed_nil C A p pn : placed C A p [] [] pn -> pn = p.
Proof. intro H. apply placed_end in H. cbn [length] in H. lia. Qed.

(* what the inference needs to know of an instruction (Proofs/InferComplete.v) *)
Definition step_ok (C : Bytecode.code) (A : annotation) (F : nat -> Prop) (q : nat) : Prop :=
  check_pc C A q = true /\
  forall i, nth_error C q = Some i ->
            ishape i <> SFstrPush /\ forall u, In u (targets (length C) q (ishape i)) -> F u.

Lemma on_seg_check C A (F : nat -> nat -> Prop) p pn :
  on_seg (fun q => step_ok C A (F q) q) p pn -> forall q, p <= q < pn -> check_pc C A q = true.
Proof. intros H q Hq. apply (H q Hq). Qed.

Lemma step_ok_mono C A (F G : nat -> Prop) q : (forall u, F u -> G u) -> step_ok C A F q -> step_ok C A G q.
Proof. intros H [H1 H2]. split; [exact H1|]. intros i Hi. destruct (H2 i Hi) as [H3 H4]. split; auto. Qed.

Lemma step_intro C A (F : nat -> Prop) q i a sa :
  nth_error C q = Some i -> nth_error A q = Some (Some a) ->
  atransfer (length C) q (ishape i) a = AOk sa -> ishape i <> SFstrPush ->
  (forall t a', In (t, a') sa -> admits A t a' /\ F t) -> step_ok C A F q.
Proof.
  intros HC HA HT Hns H. split.
  - apply (check_pc_iff _ _ _ _ _ HA HC). exists sa; split; [exact HT|]. intros t a' Hin. apply (H _ _ Hin).
  - intros i' Hi. rewrite HC in Hi. injection Hi as <-. split; [exact Hns|]. intros u Hu.
    rewrite <- (atransfer_targets _ _ _ _ _ HT) in Hu. apply in_map_iff in Hu as [[t a'] [<- Hin]]. apply (H _ _ Hin).
Qed.

Lemma step_next C A (F : nat -> Prop) q i sh a a' :
  nth_error C q = Some i -> nth_error A q = Some (Some a) -> ishape i = sh ->
  atransfer (length C) q sh a = AOk [(S q, a')] -> a_fb a' = a_fb a -> admits A (S q) a' -> F (S q) -> step_ok C A F q.
Proof.
  intros HC HA <- HT Hfb Had HF. eapply step_intro; eauto.
  - intro Hs. rewrite Hs in HT. injection HT as <-. apply (f_equal (@length _)) in Hfb. cbn [a_fb length] in Hfb. lia.
  - intros t x [E|[]]. injection E as <- <-. split; assumption.
Qed.

Lemma step_jmp C A (F : nat -> Prop) q i a off t :
  nth_error C q = Some i -> nth_error A q = Some (Some a) -> ishape i = SJmp off ->
  admits A t a -> (Z.of_nat t = Z.of_nat q + off + 1)%Z -> t <= length C -> F t -> step_ok C A F q.
Proof.
  intros HC HA Hsh Had Ht Hle HF. eapply step_intro; eauto.
  - rewrite Hsh. cbn [atransfer]. rewrite (proj2 (jump_target_iff _ _ _ _) (conj Ht Hle)). reflexivity.
  - rewrite Hsh. discriminate.
  - intros u x [E|[]]. injection E as <- <-. split; assumption.
Qed.

Lemma step_jcond C A (F : nat -> Prop) q i a off dup t :
  nth_error C q = Some i -> nth_error A q = Some (Some a) -> ishape i = SJcond off dup -> a_lo a <> 0 ->
  admits A (S q) (popped a) -> admits A t (if dup then kept a else popped a) ->
  (Z.of_nat t = Z.of_nat q + off + 1)%Z -> t <= length C -> F (S q) -> F t -> step_ok C A F q.
Proof.
  intros HC HA Hsh Hlo Had1 Had2 Ht Hle HF1 HF2. eapply step_intro; eauto.
  - rewrite Hsh. cbn [atransfer]. rewrite (proj2 (Nat.eqb_neq _ _) Hlo), (proj2 (jump_target_iff _ _ _ _) (conj Ht Hle)). reflexivity.
  - rewrite Hsh. discriminate.
  - intros u x [E|[E|[]]]; injection E as <- <-; split; assumption.
Qed.

Lemma shape_bin o : ishape (shp_instr (I (bin_opcode o) ONil)) = SSimple (E 2 1).
Proof. destruct o; reflexivity. Qed.
Lemma shape_un o : ishape (shp_instr (I (un_opcode o) ONil)) = SSimple (E 1 1).
Proof. destruct o; reflexivity. Qed.
Lemma shape_arr {X} (l : list X) : ishape (shp_instr (I OpPushArr (OInt (zlen l)))) = SSimple (E (length l) 1).
Proof.
  unfold ishape, shp_instr, zlen. cbn [i_t i_opd VM.i_op VM.i_arg opnum shp_opd shape_of with_count].
  rewrite (proj2 (Z.ltb_ge _ _)) by lia. rewrite Nat2Z.id. reflexivity.
Qed.

(* dt / ls: a detail span / lastPop is known to exist when the annotated code is entered.  The
   program itself is annotated with dt = ls = false; the other instances are the annotations of a
   loop whose head is reached in an arbitrary abstract state (Proofs/CompileInfer.v). *)
Section Flags.
Variables dt ls : bool.
Notation S0 lo B d := (st lo B d dt ls).

(* abstract state before each instruction of compile_expr e, entered with at least lo values, open
   blocks B, dice depth at least d; left with one value more *)
Fixpoint ann_expr (e : expr) (lo : nat) (B : list nat) (d : nat) : annotation :=
  match e with
  | EInt _ | EStr _ | ENull | ETrue | EFalse => [Some (S0 lo B d)]
  | EVar _ => [Some (S0 lo B d); Some (st lo B d true ls)]
  | EAssign _ e1 => ann_expr e1 lo B d ++ [Some (S0 (S lo) B d)]
  | EUn _ e1 => ann_expr e1 lo B d ++ [Some (S0 (S lo) B d)]
  | EBin _ l r => ann_expr l lo B d ++ ann_expr r (S lo) B d ++ [Some (S0 (S (S lo)) B d)]
  | EOr l r =>
    ann_expr l lo B d ++ [Some (S0 (S lo) B d)] ++ ann_expr r lo B d
    ++ [Some (S0 (S lo) B d); Some (st lo B d dt true)]
  | ETern c a b =>
    ann_expr c lo B d ++ [Some (S0 (S lo) B d)] ++ ann_expr a lo B d ++ [Some (S0 (S lo) B d)] ++ ann_expr b lo B d
  | EArr l =>
    (fix items (l : list expr) (lo' : nat) : annotation :=
       match l with [] => [] | x :: r => ann_expr x lo' B d ++ items r (S lo') end) l lo
    ++ [Some (S0 (length l + lo) B d)]
  | EIdx b i => ann_expr b lo B d ++ ann_expr i (S lo) B d ++ [Some (S0 (S (S lo)) B d)]
  | ERoll x y =>
    ann_expr x lo B d ++ [Some (S0 (S lo) B d); Some (S0 (S lo) B (S d))]
    ++ ann_expr y lo B (S d) ++ [Some (S0 (S lo) B (S d)); Some (st (S lo) B (S d) true ls)]
  end.

(* break / continue: one block.pop per open `if`; block.pop leaves (saved height + 1) values *)
Fixpoint ann_pops (lo : nat) (ifs LB : list nat) (d : nat) : annotation :=
  match ifs with
  | [] => []
  | b :: r => Some (S0 lo (ifs ++ LB) d) :: ann_pops (S b) r LB d
  end.
Fixpoint lo_after (lo : nat) (ifs : list nat) : nat :=
  match ifs with [] => lo | b :: r => lo_after (S b) r end.

(* ifs = saved heights of the `if` blocks open since the enclosing loop (innermost first),
   LB = the blocks open at the head L and at the exit X of the enclosing loop (the loop's own block
   and everything outside; [] at top level, where L = the first instruction and X = halt).
   Every statement is annotated as entered AND left with at least lo values. *)
Fixpoint ann_stmt (s : stmt) (lo : nat) (ifs LB : list nat) (d : nat) : annotation :=
  let B := ifs ++ LB in
  match s with
  | SNop => []
  | SExpr e => ann_expr e lo B d
  | SSeq a b => ann_stmt a lo ifs LB d ++ ann_stmt b lo ifs LB d
  | SIf c t e =>
    ann_expr c lo B d ++ [Some (S0 (S lo) B d); Some (S0 (S lo) (S lo :: B) d)]
    ++ ann_stmt t lo (S lo :: ifs) LB d ++ [Some (S0 lo (S lo :: B) d)]
    ++ ann_stmt e lo (S lo :: ifs) LB d ++ [Some (S0 lo (S lo :: B) d)]
  | SWhile c b =>
    [Some (S0 lo B d)] ++ ann_expr c lo (lo :: B) d ++ [Some (S0 (S lo) (lo :: B) d)]
    ++ ann_stmt b lo [] (lo :: B) d ++ [Some (S0 lo (lo :: B) d)] ++ [Some (S0 lo (lo :: B) d)]
  | SBreak | SContinue => ann_pops lo ifs LB d ++ [Some (S0 (lo_after lo ifs) LB d)]
  end.

Fixpoint aitems (l : list expr) (lo : nat) (B : list nat) (d : nat) : annotation :=
  match l with [] => [] | x :: r => ann_expr x lo B d ++ aitems r (S lo) B d end.
Lemma ann_arr l lo B d : ann_expr (EArr l) lo B d = aitems l lo B d ++ [Some (S0 (length l + lo) B d)].
Proof.
  cbn [ann_expr]. f_equal. revert lo. induction l as [|x r IH]; intro lo; cbn [aitems]; [reflexivity|].
  rewrite IH. reflexivity.
Qed.
End Flags.

Lemma aitems_len dt ls l : (forall x, In x l -> forall lo B d, length (ann_expr dt ls x lo B d) = length (compile_expr x)) ->
  forall lo B d, length (aitems dt ls l lo B d) = length (citems l).
Proof.
  induction l as [|x r IH]; intros H lo B d; cbn [aitems citems]; [reflexivity|].
  rewrite !app_length, H, IH; [reflexivity|intros; apply H; right; assumption|left; reflexivity].
Qed.

Lemma ann_expr_len dt ls e : forall lo B d, length (ann_expr dt ls e lo B d) = length (compile_expr e).
Proof.
  induction e using expr_ind'; intros lo B d; try rewrite ann_arr, compile_arr; cbn [ann_expr compile_expr];
    rewrite ?app_length, ?IHe, ?IHe1, ?IHe2, ?IHe3; try reflexivity.
  rewrite aitems_len; [reflexivity|]. exact (proj1 (Forall_forall _ _) H).
Qed.

Lemma ann_expr_hd dt ls e : forall lo B d, exists t, ann_expr dt ls e lo B d = Some (st lo B d dt ls) :: t.
Proof.
  induction e using expr_ind'; intros lo B d; cbn [ann_expr]; try (eexists; reflexivity).
  1-5,7-8: destruct (IHe lo B d) as [t ->] || destruct (IHe1 lo B d) as [t ->]; eexists; reflexivity.
  destruct H as [|x r Hx _]; [eexists; reflexivity|]. destruct (Hx lo B d) as [t ->]. eexists; reflexivity.
Qed.

Lemma placed_hd_expr dt ls C A q e lo B d pn :
  placed C A q (compile_expr e) (ann_expr dt ls e lo B d) pn -> admits A q (st lo B d dt ls).
Proof. intros (_ & HA & _). destruct (ann_expr_hd dt ls e lo B d) as [t E]. rewrite E in HA. apply admits_here, HA. Qed.

Arguments admits_here {A t a}.
Arguments placed_hd_expr {dt ls C A q e lo B d pn}.
Arguments placed_end {C A p c a pn}.

(* the loops of a statement compiled at p: (first instruction of the condition, closing jump) *)
Fixpoint sloops (dd : nat) (s : stmt) (p : nat) : list (nat * nat) :=
  match s with
  | SSeq a b => sloops dd a p ++ sloops dd b (p + sl dd a)
  | SIf c t e =>
    sloops (S dd) t (S (S (p + length (compile_expr c))))
    ++ sloops (S dd) e (S (S (S (p + length (compile_expr c))) + sl (S dd) t))
  | SWhile c b =>
    (S p, S (S p + length (compile_expr c)) + sl 0 b) :: sloops 0 b (S (S p + length (compile_expr c)))
  | _ => []
  end.

Lemma sloops_pos s : forall dd p hd cl, In (hd, cl) (sloops dd s p) -> p < hd <= cl /\ cl + 1 < p + sl dd s.
Proof.
  induction s; intros dd p hd cl; cbn [sloops sl In]; rewrite ?in_app_iff.
  1,2,6,7: intros [].
  - intros [H|H]; [apply IHs1 in H|apply IHs2 in H]; lia.
  - intros [H|H]; [apply IHs1 in H|apply IHs2 in H]; lia.
  - intros [E|H]; [injection E as <- <-|apply IHs in H]; lia.
Qed.

(* where a successor u of an instruction q of a statement that ends at m, with loops L, can be: further
   on in the statement (or right after it) without entering a loop that does not contain q; the exit PX
   of the enclosing loop; the head PL of the enclosing loop; the head of a loop of L that contains q *)
Definition jcl (L : list (nat * nat)) (PL PX m q u : nat) : Prop :=
  (q < u <= m /\ forall t e, In (t, e) L -> q < t -> ~ (t < u <= e)) \/
  (q < u /\ u = PX) \/ u = PL \/
  (exists t e, In (t, e) L /\ u = t /\ t <= q <= e).

Lemma jcl_fwd L PL PX m q u :
  q < u <= m -> (forall t e, In (t, e) L -> t <= q \/ u <= t \/ e < u) -> jcl L PL PX m q u.
Proof. intros Hu H. left. split; [exact Hu|]. intros t e Hin Hq Hr. destruct (H _ _ Hin); lia. Qed.

Lemma jcl_next L PL PX m q : S q <= m -> jcl L PL PX m q (S q).
Proof. intro H. apply jcl_fwd; [lia|]. intros t e _. lia. Qed.

Lemma jcl_mono L L' PL PX m m' q u :
  m <= m' -> incl L L' -> (forall t e, In (t, e) L' -> In (t, e) L \/ m <= t \/ t <= q) ->
  jcl L PL PX m q u -> jcl L' PL PX m' q u.
Proof.
  intros Hm Hsub Hnew [[Hu Hn]|[H|[H|(t & e & Hin & H)]]].
  - left. split; [lia|]. intros t e Hin Hq Hr.
    destruct (Hnew _ _ Hin) as [Hold|[Hge|Hle]]; [exact (Hn _ _ Hold Hq Hr)|lia|lia].
  - right; left; exact H.
  - right; right; left; exact H.
  - right; right; right. exists t, e. split; [apply Hsub, Hin|exact H].
Qed.

(* aleb a (st ..) for a concrete state a: component by component, the flags by their truth table *)
Ltac flags := repeat match goal with b : bool |- _ => destruct b end; reflexivity.
Ltac st_le := apply aleb_st; cbn; [lia|reflexivity|reflexivity|lia|flags|flags].

(* each consumes the first position of an `on_seg (fun q => step_ok ..) q pn` goal and leaves the goal for
   S q: the position holds the instruction Hi, annotated Ha; its successors' states are admitted by Hn
   (Hn1, Hn2), whose positions also say where a jump goes.  `next` proves that falling through is allowed
   (the interval of an expression, or jcl_next); `jump` leaves first the goal F t, `cjump` the goals
   F (S q) and F t, to the caller *)
Ltac next_sh shp Hi Ha Hn :=
  apply on_seg_cons; [eapply step_next; [exact Hi|exact Ha|shp|reflexivity|reflexivity|eapply admits_weaken; [|exact Hn]; st_le
                                       |first [lia|apply jcl_next; lia]]|].
Ltac next Hi Ha Hn := next_sh ltac:(reflexivity) Hi Ha Hn.
Ltac jump Hi Ha Hn :=
  apply on_seg_cons; [eapply step_jmp; [exact Hi|exact Ha|reflexivity|eapply admits_weaken; [|exact Hn]; st_le|unfold zlen; lia|lia|]|].
Ltac cjump Hi Ha Hn1 Hn2 :=
  apply on_seg_cons; [eapply step_jcond; [exact Hi|exact Ha|reflexivity|discriminate|eapply admits_weaken; [|exact Hn1]; st_le
                                         |eapply admits_weaken; [|exact Hn2]; st_le|unfold zlen; lia|lia| |]|].

Definition expr_okP (dt ls : bool) (e : expr) : Prop :=
  forall C A p pn m lo B d,
    placed C A p (compile_expr e) (ann_expr dt ls e lo B d) pn -> pn <= m -> pn <= length C ->
    admits A pn (st (S lo) B d dt ls) ->
    on_seg (fun q => step_ok C A (fun u => q < u <= m) q) p pn.

Lemma items_ok dt ls l :
  Forall (expr_okP dt ls) l ->
  forall C A p pn m lo B d,
    placed C A p (citems l) (aitems dt ls l lo B d) pn -> pn <= m -> pn <= length C ->
    admits A pn (st (length l + lo) B d dt ls) ->
    on_seg (fun q => step_ok C A (fun u => q < u <= m) q) p pn.
Proof.
  induction 1 as [|x r Hx Hr IH]; intros C A p pn m lo B d H Hm HC HX; cbn [citems aitems] in H.
  - apply placed_nil in H as ->. apply on_seg_nil.
  - apply placed_app in H as [H1 H2]; [|apply ann_expr_len]. pose proof (placed_end H2).
    assert (HX' : admits A pn (st (length r + S lo) B d dt ls)) by (rewrite Nat.add_succ_r; exact HX).
    eapply on_seg_app; [eapply Hx; [exact H1|lia|lia|]|eapply IH; [exact H2|lia|lia|exact HX']].
    (* the item leaves what the next item, or the push.arr, is entered with *)
    destruct r as [|y r]; cbn [citems aitems] in H2.
    + apply placed_nil in H2 as ->. exact HX'.
    + apply placed_app in H2 as [H2 _]; [|apply ann_expr_len]. exact (placed_hd_expr H2).
Qed.

Lemma expr_ok dt ls : forall e, expr_okP dt ls e.
Proof.
  induction e using expr_ind'; intros C A p pn m lo B d HP Hm HC HX; try rewrite ann_arr, compile_arr in HP;
    cbn [compile_expr ann_expr app] in HP.
  1-5: apply placed_cons in HP as (Hi & Ha & HP); apply placed_nil in HP as ->; next Hi Ha HX; apply on_seg_nil.
  -
    apply placed_cons in HP as (Hi1 & Ha1 & HP). apply placed_cons in HP as (Hi2 & Ha2 & HP). apply placed_nil in HP as ->.
    next Hi1 Ha1 (admits_here Ha2). next Hi2 Ha2 HX. apply on_seg_nil.
  -
    apply placed_app in HP as [H1 HP]; [|apply ann_expr_len]. apply placed_cons in HP as (Hi & Ha & HP). apply placed_nil in HP as ->.
    eapply on_seg_app; [eapply IHe; [exact H1|lia|lia|exact (admits_here Ha)]|].
    next Hi Ha HX. apply on_seg_nil.
  -
    apply placed_app in HP as [H1 HP]; [|apply ann_expr_len]. apply placed_cons in HP as (Hi & Ha & HP). apply placed_nil in HP as ->.
    eapply on_seg_app; [eapply IHe; [exact H1|lia|lia|exact (admits_here Ha)]|].
    next_sh ltac:(apply shape_un) Hi Ha HX. apply on_seg_nil.
  -
    apply placed_app in HP as [H1 HP]; [|apply ann_expr_len]. apply placed_app in HP as [H2 HP]; [|apply ann_expr_len].
    apply placed_cons in HP as (Hi & Ha & HP). apply placed_nil in HP as ->.
    eapply on_seg_app; [eapply IHe1; [exact H1|lia|lia|exact (placed_hd_expr H2)]|].
    eapply on_seg_app; [eapply IHe2; [exact H2|lia|lia|exact (admits_here Ha)]|].
    next_sh ltac:(apply shape_bin) Hi Ha HX. apply on_seg_nil.
  - (* both je.dup leave the segment with the tested value kept *)
    apply placed_app in HP as [H1 HP]; [|apply ann_expr_len]. apply placed_cons in HP as (Hi1 & Ha1 & HP).
    apply placed_app in HP as [H2 HP]; [|apply ann_expr_len]. apply placed_cons in HP as (Hi2 & Ha2 & HP).
    apply placed_cons in HP as (Hi3 & Ha3 & HP). apply placed_nil in HP as ->.
    eapply on_seg_app; [eapply IHe1; [exact H1|lia|lia|exact (admits_here Ha1)]|].
    cjump Hi1 Ha1 (placed_hd_expr H2) HX; [lia..|].
    eapply on_seg_app; [eapply IHe2; [exact H2|lia|lia|exact (admits_here Ha2)]|].
    cjump Hi2 Ha2 (admits_here Ha3) HX; [lia..|].
    next Hi3 Ha3 HX. apply on_seg_nil.
  -
    apply placed_app in HP as [H1 HP]; [|apply ann_expr_len]. apply placed_cons in HP as (Hi1 & Ha1 & HP).
    apply placed_app in HP as [H2 HP]; [|apply ann_expr_len]. apply placed_cons in HP as (Hi2 & Ha2 & HP3).
    pose proof (placed_end HP3).
    eapply on_seg_app; [eapply IHe1; [exact H1|lia|lia|exact (admits_here Ha1)]|].
    cjump Hi1 Ha1 (placed_hd_expr H2) (placed_hd_expr HP3); [lia..|].
    eapply on_seg_app; [eapply IHe2; [exact H2|lia|lia|exact (admits_here Ha2)]|].
    jump Hi2 Ha2 HX; [lia|].
    eapply IHe3; [exact HP3|lia|lia|exact HX].
  -
    apply placed_app in HP as [H1 HP]; [|apply aitems_len; intros; apply ann_expr_len].
    apply placed_cons in HP as (Hi & Ha & HP). apply placed_nil in HP as ->.
    eapply on_seg_app; [eapply items_ok; [eassumption|exact H1|lia|lia|exact (admits_here Ha)]|].
    apply on_seg_cons; [|apply on_seg_nil].
    eapply step_next; [exact Hi|exact Ha|apply shape_arr|apply atransfer_simple; split; [repeat split; try reflexivity; cbn; lia|reflexivity]|reflexivity|eapply admits_weaken; [|exact HX]; st_le|lia].
  -
    apply placed_app in HP as [H1 HP]; [|apply ann_expr_len]. apply placed_app in HP as [H2 HP]; [|apply ann_expr_len].
    apply placed_cons in HP as (Hi & Ha & HP). apply placed_nil in HP as ->.
    eapply on_seg_app; [eapply IHe1; [exact H1|lia|lia|exact (placed_hd_expr H2)]|].
    eapply on_seg_app; [eapply IHe2; [exact H2|lia|lia|exact (admits_here Ha)]|].
    next Hi Ha HX. apply on_seg_nil.
  -
    apply placed_app in HP as [H1 HP]; [|apply ann_expr_len]. apply placed_cons in HP as (Hi1 & Ha1 & HP).
    apply placed_cons in HP as (Hi2 & Ha2 & HP). apply placed_app in HP as [H2 HP]; [|apply ann_expr_len].
    apply placed_cons in HP as (Hi3 & Ha3 & HP). apply placed_cons in HP as (Hi4 & Ha4 & HP). apply placed_nil in HP as ->.
    eapply on_seg_app; [eapply IHe1; [exact H1|lia|lia|exact (admits_here Ha1)]|].
    next Hi1 Ha1 (admits_here Ha2). next Hi2 Ha2 (placed_hd_expr H2).
    eapply on_seg_app; [eapply IHe2; [exact H2|lia|lia|exact (admits_here Ha3)]|].
    next Hi3 Ha3 (admits_here Ha4). next Hi4 Ha4 HX. apply on_seg_nil.
Qed.

Lemma ann_pops_len dt ls ifs : forall lo LB d, length (ann_pops dt ls lo ifs LB d) = length ifs.
Proof. induction ifs as [|b r IH]; intros; cbn [ann_pops length]; [reflexivity|]. rewrite IH. reflexivity. Qed.

Lemma ann_stmt_len dt ls s : forall lo ifs LB d, length (ann_stmt dt ls s lo ifs LB d) = sl (length ifs) s.
Proof.
  induction s; intros lo ifs LB d; cbn [ann_stmt sl]; rewrite ?app_length, ?ann_expr_len, ?ann_pops_len; cbn [length];
    rewrite ?IHs1, ?IHs2, ?IHs; cbn [length]; lia.
Qed.

Lemma ann_stmt_hd dt ls s : forall lo ifs LB d,
  ann_stmt dt ls s lo ifs LB d = [] \/ exists t, ann_stmt dt ls s lo ifs LB d = Some (st lo (ifs ++ LB) d dt ls) :: t.
Proof.
  induction s; intros lo ifs LB d; cbn [ann_stmt].
  - left; reflexivity.
  - right. apply ann_expr_hd.
  - destruct (IHs1 lo ifs LB d) as [->|[t ->]]; [apply IHs2|right; eexists; reflexivity].
  - right. destruct (ann_expr_hd dt ls c lo (ifs ++ LB) d) as [t ->]. eexists; reflexivity.
  - right. eexists; reflexivity.
  - right. destruct ifs; eexists; reflexivity.
  - right. destruct ifs; eexists; reflexivity.
Qed.

Lemma stmt_entry dt ls s C A p pn lo ifs LB d bo ao :
  placed C A p (compile_stmt (length ifs) bo ao s) (ann_stmt dt ls s lo ifs LB d) pn ->
  admits A pn (st lo (ifs ++ LB) d dt ls) -> admits A p (st lo (ifs ++ LB) d dt ls).
Proof.
  intros (_ & HA & ->) HX. pose proof (ann_stmt_len dt ls s lo ifs LB d) as L. rewrite compile_stmt_len in HX.
  destruct (ann_stmt_hd dt ls s lo ifs LB d) as [E|[t E]]; rewrite E in *.
  - cbn [length] in L. rewrite <- L, Nat.add_0_r in HX. exact HX.
  - apply admits_here, HA.
Qed.
Arguments stmt_entry {dt ls s C A p pn lo ifs LB d bo ao}.

Lemma lo_after_ge ifs : forall lo0 lo, lo0 <= lo -> Forall (fun b => lo0 <= S b) ifs -> lo0 <= lo_after lo ifs.
Proof.
  induction ifs as [|b r IH]; intros lo0 lo Hle HF; cbn [lo_after]; [exact Hle|].
  inversion HF; subst. apply IH; assumption.
Qed.

Lemma pops_ok dt ls ifs : forall C A p pn m lo LB d,
  placed C A p (pops (length ifs)) (ann_pops dt ls lo ifs LB d) pn -> pn <= m ->
  admits A pn (st (lo_after lo ifs) LB d dt ls) ->
  on_seg (fun q => step_ok C A (fun u => q < u <= m) q) p pn.
Proof.
  induction ifs as [|b r IH]; intros C A p pn m lo LB d H Hm HX; cbn [length pops repeat ann_pops lo_after] in *.
  - apply placed_nil in H as ->. apply on_seg_nil.
  - fold (pops (length r)) in H. apply placed_cons in H as (Hi & Ha & H). pose proof (placed_end H).
    assert (Hn : admits A (S p) (st (S b) (r ++ LB) d dt ls)).
    { destruct r as [|b' r']; cbn [ann_pops] in H.
      - apply placed_nil in H as ->. exact HX.
      - apply placed_cons in H as (_ & Ha' & _). exact (admits_here Ha'). }
    next Hi Ha Hn. eapply IH; eassumption.
Qed.

Lemma expr_in_stmt C A L PL PX p pn m :
  pn <= m -> (forall t e, In (t, e) L -> t <= p \/ pn <= t) ->
  on_seg (fun q => step_ok C A (fun u => q < u <= pn) q) p pn ->
  on_seg (fun q => step_ok C A (jcl L PL PX m q) q) p pn.
Proof.
  intros Hm HL. apply on_seg_mono. intros q Hq. apply step_ok_mono. intros u Hu. apply jcl_fwd; [lia|].
  intros t e Hin. destruct (HL _ _ Hin); lia.
Qed.

Lemma sub_ok C A L L' PL PX p pn m :
  pn <= m -> incl L L' -> (forall t e, In (t, e) L' -> In (t, e) L \/ pn <= t \/ t <= p) ->
  on_seg (fun q => step_ok C A (jcl L PL PX pn q) q) p pn ->
  on_seg (fun q => step_ok C A (jcl L' PL PX m q) q) p pn.
Proof.
  intros Hm Hi Hn. apply on_seg_mono. intros q Hq. apply step_ok_mono. intro u.
  apply jcl_mono; [exact Hm|exact Hi|]. intros t e Hin. destruct (Hn _ _ Hin) as [?|[?|?]]; auto. right; right; lia.
Qed.

(* PL / PX = the positions of the head L and of the exit X of the enclosing loop (top level: the
   first instruction and halt); bo / ao are the distances the compiler was told *)
Definition stmt_okP (dt ls : bool) (s : stmt) : Prop :=
  forall C A p pn lo ifs LB d bo ao PL PX,
    placed C A p (compile_stmt (length ifs) bo ao s) (ann_stmt dt ls s lo ifs LB d) pn ->
    Forall (fun b => lo <= S b) ifs ->
    admits A pn (st lo (ifs ++ LB) d dt ls) -> admits A PL (st lo LB d dt ls) -> admits A PX (st lo LB d dt ls) ->
    (bo = Z.of_nat p - Z.of_nat PL)%Z -> PL <= p -> (ao = Z.of_nat PX - Z.of_nat pn)%Z -> pn <= PX -> PX <= length C ->
    on_seg (fun q => step_ok C A (jcl (sloops (length ifs) s p) PL PX pn q) q) p pn.

(* the inside of `while c { b }`: condition, jne, body, closing jump; inductive whatever blocks B are open *)
Definition loop_code (c : expr) (b : stmt) : VM.code :=
  compile_expr c ++ [I OpJne (OInt (ssize 0 b + 1))] ++ compile_stmt 0 (zlen (compile_expr c) + 1) 1 b
  ++ [I OpJmp (OInt (- (zlen (compile_expr c) + 1 + ssize 0 b + 1)))].
Definition loop_ann (dt ls : bool) (c : expr) (b : stmt) (lo : nat) (B : list nat) (d : nat) : annotation :=
  ann_expr dt ls c lo B d ++ [Some (st (S lo) B d dt ls)] ++ ann_stmt dt ls b lo [] B d ++ [Some (st lo B d dt ls)].

Lemma while_code dd bo ao c b : compile_stmt dd bo ao (SWhile c b) = I OpBlockPush ONil :: loop_code c b ++ [I OpBlockPop ONil].
Proof. unfold loop_code. cbn [compile_stmt]. rewrite <- !app_assoc. reflexivity. Qed.
Lemma while_ann dt ls c b lo ifs LB d :
  ann_stmt dt ls (SWhile c b) lo ifs LB d =
  Some (st lo (ifs ++ LB) d dt ls) :: loop_ann dt ls c b lo (lo :: ifs ++ LB) d ++ [Some (st lo (lo :: ifs ++ LB) d dt ls)].
Proof. unfold loop_ann. cbn [ann_stmt]. rewrite <- !app_assoc. reflexivity. Qed.
Lemma loop_code_len c b : length (loop_code c b) = length (compile_expr c) + 1 + sl 0 b + 1.
Proof. unfold loop_code. rewrite !app_length, compile_stmt_len. cbn [length]. lia. Qed.
Lemma loop_ann_len dt ls c b lo B d : length (loop_ann dt ls c b lo B d) = length (loop_code c b).
Proof. rewrite loop_code_len. unfold loop_ann. rewrite !app_length, ann_expr_len, ann_stmt_len. cbn [length]. lia. Qed.
Lemma loop_ann_hd dt ls c b lo B d : exists t, loop_ann dt ls c b lo B d = Some (st lo B d dt ls) :: t.
Proof. unfold loop_ann. destruct (ann_expr_hd dt ls c lo B d) as [t ->]. eexists; reflexivity. Qed.

Lemma loop_ok dt ls c b : stmt_okP dt ls b -> forall C A p px e PL PX m lo B d,
  placed C A p (loop_code c b) (loop_ann dt ls c b lo B d) px -> S px <= length C -> admits A px (st lo B d dt ls) ->
  e + 1 = px -> px <= m ->
  on_seg (fun q => step_ok C A (jcl ((p, e) :: sloops 0 b (S (p + length (compile_expr c)))) PL PX m q) q) p px.
Proof.
  intros IB C A p px e PL PX m lo B d H HC HX He Hm. unfold loop_code, loop_ann in H. cbn [app] in H.
  apply placed_app in H as [H1 H]; [|apply ann_expr_len]. apply placed_cons in H as (Hi1 & Ha1 & H).
  apply placed_app in H as [H2 H]; [|rewrite ann_stmt_len, compile_stmt_len; reflexivity].
  apply placed_cons in H as (Hi2 & Ha2 & H). apply placed_nil in H as ->.
  rewrite ?compile_stmt_len, ?ssize_sl in *. unfold zlen in *.
  eapply on_seg_app; [eapply expr_in_stmt; [| |eapply expr_ok; [exact H1|apply Nat.le_refl|lia|exact (admits_here Ha1)]]|].
  { lia. }
  { intros t e' [E|Hin]; [injection E as <- <-|apply sloops_pos in Hin]; lia. }
  cjump Hi1 Ha1 (stmt_entry (ifs := []) H2 (admits_here Ha2)) HX.
  { apply jcl_next. lia. }
  { apply jcl_fwd; [lia|]. intros t e' [E|Hin]; [injection E as <- <-|apply sloops_pos in Hin]; lia. }
  eapply on_seg_app.
  { eapply on_seg_mono; [|eapply (IB C A _ _ lo [] B d); [exact H2|constructor|exact (admits_here Ha2)|exact (placed_hd_expr H1)|exact HX|lia..]].
    intros q Hq. apply step_ok_mono. intros u [[Hu Hn]|[[Hu ->]|[->|(t & e' & Hin & -> & Hr)]]].
    - left. split; [lia|]. intros t e' [E|Hin] Hq'; [injection E as <- <-; lia|exact (Hn _ _ Hin Hq')].
    - apply jcl_fwd; [lia|]. intros t e' [E|Hin]; [injection E as <- <-|apply sloops_pos in Hin]; lia.
    - right; right; right. exists p, e. split; [left; reflexivity|lia].
    - right; right; right. exists t, e'. split; [right; exact Hin|split; [reflexivity|exact Hr]]. }
  jump Hi2 Ha2 (placed_hd_expr H1).
  { right; right; right. exists p, e. split; [left; reflexivity|lia]. }
  apply on_seg_nil.
Qed.

Lemma stmt_ok dt ls : forall s, stmt_okP dt ls s.
Proof.
  induction s; intros C A p pn lo ifs LB d bo ao PL PX H HF HX HL HXX Hbo HPL Hao HPX HPXle;
    cbn [sloops].
  - cbn [compile_stmt ann_stmt app] in H. apply placed_nil in H as ->. apply on_seg_nil.
  -
    cbn [compile_stmt ann_stmt app] in H.
    eapply expr_in_stmt; [apply Nat.le_refl|intros t e' []|].
    eapply expr_ok; [exact H|apply Nat.le_refl|lia|eapply admits_weaken; [|exact HX]; st_le].
  -
    cbn [compile_stmt ann_stmt app] in H.
    apply placed_app in H as [H1 H2]; [|rewrite ann_stmt_len, compile_stmt_len; reflexivity].
    pose proof (placed_end H2). rewrite ?compile_stmt_len, ?ssize_sl in *.
    eapply on_seg_app.
    + eapply sub_ok; [| | |eapply IHs1; [exact H1|exact HF|exact (stmt_entry H2 HX)|exact HL|exact HXX|lia..]].
      * lia.
      * apply incl_appl, incl_refl.
      * intros t e' Hin. apply in_app_or in Hin as [Hin|Hin]; [left; exact Hin|apply sloops_pos in Hin; lia].
    + eapply sub_ok; [| | |eapply IHs2; [exact H2|exact HF|exact HX|exact HL|exact HXX|lia..]].
      * lia.
      * apply incl_appr, incl_refl.
      * intros t e' Hin. apply in_app_or in Hin as [Hin|Hin]; [apply sloops_pos in Hin; lia|left; exact Hin].
  -
    cbn [compile_stmt ann_stmt app] in H.
    apply placed_app in H as [H1 H]; [|apply ann_expr_len]. apply placed_cons in H as (Hi1 & Ha1 & H).
    apply placed_cons in H as (Hi2 & Ha2 & H).
    apply placed_app in H as [H2 H]; [|rewrite (ann_stmt_len dt ls s1 lo (S lo :: ifs)), compile_stmt_len; reflexivity].
    apply placed_cons in H as (Hi3 & Ha3 & H).
    apply placed_app in H as [H3 H]; [|rewrite (ann_stmt_len dt ls s2 lo (S lo :: ifs)), compile_stmt_len; reflexivity].
    apply placed_cons in H as (Hi4 & Ha4 & H). apply placed_nil in H as ->.
    rewrite ?compile_stmt_len, ?ssize_sl in *. unfold zlen in *.
    eapply on_seg_app; [eapply expr_in_stmt; [| |eapply expr_ok; [exact H1|apply Nat.le_refl|lia|exact (admits_here Ha1)]]|].
    { lia. }
    { intros t e' Hin. apply in_app_or in Hin as [Hin|Hin]; apply sloops_pos in Hin; lia. }
    next Hi1 Ha1 (admits_here Ha2).
    cjump Hi2 Ha2 (stmt_entry (ifs := S lo :: ifs) H2 (admits_here Ha3)) (stmt_entry (ifs := S lo :: ifs) H3 (admits_here Ha4)).
    { apply jcl_next. lia. }
    { apply jcl_fwd; [lia|]. intros t e' Hin. apply in_app_or in Hin as [Hin|Hin]; apply sloops_pos in Hin; lia. }
    eapply on_seg_app.
    { eapply sub_ok; [| | |eapply (IHs1 C A _ _ lo (S lo :: ifs));
                           [exact H2|constructor; [lia|exact HF]|exact (admits_here Ha3)|exact HL|exact HXX|lia..]].
      - lia.
      - apply incl_appl, incl_refl.
      - intros t e' Hin. apply in_app_or in Hin as [Hin|Hin]; [left; exact Hin|apply sloops_pos in Hin; lia]. }
    jump Hi3 Ha3 (admits_here Ha4).
    { apply jcl_fwd; [lia|]. intros t e' Hin. apply in_app_or in Hin as [Hin|Hin]; apply sloops_pos in Hin; lia. }
    eapply on_seg_app.
    { eapply sub_ok; [| | |eapply (IHs2 C A _ _ lo (S lo :: ifs));
                           [exact H3|constructor; [lia|exact HF]|exact (admits_here Ha4)|exact HL|exact HXX|lia..]].
      - lia.
      - apply incl_appr, incl_refl.
      - intros t e' Hin. apply in_app_or in Hin as [Hin|Hin]; [apply sloops_pos in Hin; lia|left; exact Hin]. }
    next Hi4 Ha4 HX. apply on_seg_nil.
  -
    rewrite while_code, while_ann in H. apply placed_cons in H as (Hi1 & Ha1 & H).
    apply placed_app in H as [H1 H]; [|apply loop_ann_len]. apply placed_cons in H as (Hi2 & Ha2 & H). apply placed_nil in H as ->.
    rewrite loop_code_len in *.
    assert (Hhd : admits A (S p) (st lo (lo :: ifs ++ LB) d dt ls)).
    { destruct H1 as (_ & H1 & _). destruct (loop_ann_hd dt ls c s lo (lo :: ifs ++ LB) d) as [t E]. rewrite E in H1. apply admits_here, H1. }
    next Hi1 Ha1 Hhd.
    eapply on_seg_app; [eapply loop_ok; [exact IHs|exact H1|lia|exact (admits_here Ha2)|lia|lia]|].
    next Hi2 Ha2 HX. apply on_seg_nil.
  -
    cbn [compile_stmt ann_stmt app] in H.
    apply placed_app in H as [H1 H]; [|rewrite ann_pops_len, pops_len; reflexivity].
    apply placed_cons in H as (Hi & Ha & H). apply placed_nil in H as ->. rewrite pops_len in *.
    pose proof (lo_after_ge ifs lo lo (le_n _) HF).
    eapply on_seg_app; [eapply expr_in_stmt; [|intros t e' []|eapply pops_ok; [exact H1|apply Nat.le_refl|exact (admits_here Ha)]]; lia|].
    jump Hi Ha HXX; [right; left; lia|]. apply on_seg_nil.
  -
    cbn [compile_stmt ann_stmt app] in H.
    apply placed_app in H as [H1 H]; [|rewrite ann_pops_len, pops_len; reflexivity].
    apply placed_cons in H as (Hi & Ha & H). apply placed_nil in H as ->. rewrite pops_len in *.
    pose proof (lo_after_ge ifs lo lo (le_n _) HF).
    eapply on_seg_app; [eapply expr_in_stmt; [|intros t e' []|eapply pops_ok; [exact H1|apply Nat.le_refl|exact (admits_here Ha)]]; lia|].
    jump Hi Ha HL; [right; right; left; reflexivity|]. apply on_seg_nil.
Qed.

(* the program, entered with at least lo values, blocks B, dice depth d and flags dt / ls, annotated
   accordingly: the statements are inductive and go where jcl says (the enclosing "loop" is the program:
   head 0, exit halt), and halt has no successor *)
Lemma whole_ok dt ls p lo B d :
  let C := to_shape (compile p) in
  let A := ann_stmt dt ls p lo [] B d ++ [Some (st lo B d dt ls)] in
  nth_error A 0 = Some (Some (st lo B d dt ls)) /\
  on_seg (fun q => step_ok C A (jcl (sloops 0 p 0) 0 (sl 0 p) (sl 0 p) q) q) 0 (sl 0 p) /\
  step_ok C A (fun _ => False) (sl 0 p).
Proof.
  intros C A.
  assert (H : placed C A 0 (compile_stmt 0 0 0 p) (ann_stmt dt ls p lo [] B d) (sl 0 p)).
  { split; [|split; [apply (at_seg_mid [] _ _)|rewrite compile_stmt_len; reflexivity]].
    unfold C, compile. rewrite to_shape_app. apply (at_seg_mid [] _ _). }
  assert (HH : nth_error A (sl 0 p) = Some (Some (st lo B d dt ls))).
  { unfold A. rewrite nth_error_app2; rewrite ann_stmt_len; [|apply Nat.le_refl]. rewrite Nat.sub_diag. reflexivity. }
  assert (HCh : nth_error C (sl 0 p) = Some (shp_instr (I OpHalt ONil))).
  { unfold C, compile. rewrite to_shape_app, nth_error_app2; rewrite to_shape_len, compile_stmt_len; [|apply Nat.le_refl].
    rewrite Nat.sub_diag. reflexivity. }
  assert (LC : length C = sl 0 p + 1).
  { unfold C, compile. rewrite to_shape_len, app_length, compile_stmt_len. reflexivity. }
  assert (H0 : nth_error A 0 = Some (Some (st lo B d dt ls))).
  { destruct (ann_stmt_hd dt ls p lo [] B d) as [E|[t E]]; unfold A; rewrite E; reflexivity. }
  split; [exact H0|]. split.
  - eapply (stmt_ok dt ls p C A 0 (sl 0 p) lo [] B d 0%Z 0%Z 0 (sl 0 p));
      [exact H|constructor|exact (admits_here HH)|exact (admits_here H0)|exact (admits_here HH)|lia..].
  - eapply step_intro; [exact HCh|exact HH|reflexivity|discriminate|intros t a' []].
Qed.

(* the whole program: statements, then halt; nothing is known on entry *)
Definition annot (p : stmt) : annotation := ann_stmt false false p 0 [] [] 0 ++ [Some (st 0 [] 0 false false)].

(* the explicit annotation of every program of the fragment is accepted by the
   checker.  No side condition: every `stmt` of Model/Ast.v, of any size and nesting depth, including
   break / continue outside a loop (at top level they jump to halt / to the first instruction). *)
Theorem compile_check : forall p : stmt, check (to_shape (compile p)) (annot p) = true.
Proof.
  intro p. destruct (whole_ok false false p 0 [] 0) as (H0 & H & Hh). apply check_iff. split; [exact (admits_here H0)|].
  intros q Hq. unfold compile in Hq. rewrite to_shape_len, app_length, compile_stmt_len in Hq. cbn [length] in Hq.
  destruct (Nat.eq_dec q (sl 0 p)) as [->|Hne]; [apply Hh|apply (on_seg_check _ _ _ _ _ H); lia].
Qed.

Corollary compile_checked : forall p : stmt, exists a, check (to_shape (compile p)) a = true.
Proof. intro p. exists (annot p). apply compile_check. Qed.

(* hence (soundness of the checker, Proofs/VerifyProofs.v): on no path -- whatever the outcomes of the
   conditional jumps -- does compiled code pop an empty stack, jump outside [0, len], meet an
   ill-typed operand, close a block that is not open, or use dice / detail / lastPop state nobody
   set up *)
Corollary compile_never_stuck :
  forall (p : stmt) s, reachable (to_shape (compile p)) s -> forall r, sstep (to_shape (compile p)) s <> Stuck r.
Proof. intros p. exact (no_stuck_reachable _ _ (compile_check p)). Qed.

Corollary compile_reachable_consistent :
  forall (p : stmt) s, reachable (to_shape (compile p)) s -> consistent (annot p) s.
Proof. intros p. exact (reachable_consistent _ _ (compile_check p)). Qed.

Corollary compile_block_depth_unique :
  forall (p : stmt) s1 s2, reachable (to_shape (compile p)) s1 -> reachable (to_shape (compile p)) s2 -> pc s1 = pc s2 ->
  length (blocks s1) = length (blocks s2) /\ length (fblocks s1) = length (fblocks s2).
Proof. intros p. exact (block_depth_unique _ _ (compile_check p)). Qed.

Lemma to_shape_subprogram c b : subprogram (to_shape c) b -> b = to_shape c.
Proof.
  intro H. remember (to_shape c) as C eqn:EC. induction H as [|C c' t n o b S IH Hin]; [reflexivity|].
  specialize (IH EC). subst c' C. unfold to_shape in Hin. apply in_map_iff in Hin.
  destruct Hin as [i [Hi _]]. discriminate Hi.
Qed.

Corollary compile_all_never_stuck :
  forall (p : stmt) b, subprogram (to_shape (compile p)) b ->
  forall s, reachable b s -> forall r, sstep b s <> Stuck r.
Proof. intros p b Hb. rewrite (to_shape_subprogram _ _ Hb). apply compile_never_stuck. Qed.

Corollary compile_names_ok : forall p : stmt, names_ok (to_shape (compile p)) = true.
Proof. intro p. apply to_shape_names. Qed.

Print Assumptions compile_check.
Print Assumptions compile_never_stuck.
Print Assumptions compile_block_depth_unique.
Print Assumptions compile_all_never_stuck.

Module CVExamples.
  Open Scope string_scope.
  (* every construct of the fragment: assignment, while, if / else, break and continue under open
     `if` blocks, nested dice, ||, ternary, array literal with a ternary element, indexing, unary *)
  Definition ex_all : stmt :=
    SSeq (SExpr (EAssign "i" (EInt 0)))
     (SSeq (SWhile (EBin BLt (EVar "i") (EInt 5))
             (SSeq (SExpr (EAssign "i" (EBin BAdd (EVar "i") (EInt 1))))
               (SSeq (SIf (EBin BEq (EVar "i") (EInt 2)) SBreak (SIf (EVar "i") SContinue SNop))
                     (SExpr (EAssign "r" (ERoll (EInt 2) (ERoll (EInt 1) (EInt 6))))))))
           (SExpr (EOr (ETern (EVar "r")
                              (EArr [EInt 1; ETern (EInt 1) (EInt 2) (EInt 3); EIdx (EArr [EInt 1]) (EInt 0)])
                              ENull)
                       (EUn UNeg (EStr "a"))))).

  Example ex_all_accepted :
    verify (to_shape (compile ex_all)) = true /\ check (to_shape (compile ex_all)) (annot ex_all) = true /\
    List.length (compile ex_all) = 68.
  Proof. repeat split; vm_compute; reflexivity. Qed.

  (* the translation yields the dump format of Model/Bytecode.v: `i = 0; while i < 5 { i = i + 1 }` *)
  Definition B (t : nat) (n : string) (o : Bytecode.operand) : Bytecode.instr := Instr (N.of_nat t) n o None.
  Example ex_while_shape :
    to_shape (compile (SSeq (SExpr (EAssign "i" (EInt 0)))
                            (SWhile (EBin BLt (EVar "i") (EInt 5)) (SExpr (EAssign "i" (EBin BAdd (EVar "i") (EInt 1)))))))
    = [ B 0 "push.int" (PInt 0); B 17 "store" PStr; B 82 "block.push" PNil; B 71 "mark.detail" PSpan; B 15 "ld.d" PStr;
        B 0 "push.int" (PInt 5); B 35 "comp.lt" PNil; B 77 "jne" (PInt 6); B 71 "mark.detail" PSpan; B 15 "ld.d" PStr;
        B 0 "push.int" (PInt 1); B 28 "add" PNil; B 17 "store" PStr; B 75 "jmp" (PInt (-11)); B 83 "block.pop" PNil;
        B 70 "halt" PNil ].
  Proof. vm_compute. reflexivity. Qed.

  Example ex_toplevel_jumps :
    verify (to_shape (compile (SSeq (SIf ETrue SBreak SContinue) SContinue))) = true /\
    verify (to_shape (compile SNop)) = true.
  Proof. split; vm_compute; reflexivity. Qed.
End CVExamples.

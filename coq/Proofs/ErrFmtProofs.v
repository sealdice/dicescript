(* C19 — lemmas about Model/Pos.v and Model/ErrFmt.v.
   Position: one case lemma for decode on a non-ASCII byte (decode_multi); `consistent` is kept by
   read (read_lands), so it holds of every point the parser can hold, and it determines line and
   column from the offset (line_col_spec).  Rendering: the scanners of parse_back undo, piece by
   piece, the concatenation that render builds (render_parses_back). *)
From Coq Require Import NArith ZArith List Bool Arith Lia ZifyBool.
From Coq Require Import Decimal DecimalNat DecimalFacts.
From DS Require Import Model.Pos Model.ErrFmt.
Import ListNotations.

Lemma decode_nil : decode [] = (RuneError, 0).
Proof. reflexivity. Qed.

Lemma lead_spec p0 sz lo hi :
  lead p0 = Some (sz, lo, hi) ->
  (128 <= lo /\ hi <= 191)%N /\ 2 <= sz <= 4 /\
  (sz = 2 -> (194 <= p0 < 224)%N) /\
  (sz = 3 -> (224 <= p0 < 240)%N /\ (p0 = 224 -> 160 <= lo)%N) /\
  (sz = 4 -> (240 <= p0 < 245)%N /\ (p0 = 240 -> 144 <= lo)%N).
Proof.
  unfold lead.
  repeat match goal with
         | |- context [if ?c then _ else _] => destruct c eqn:?
         end; intro H; inversion H; subst; lia.
Qed.

(* the payload bits of a byte whose high bits are known *)
Lemma mod_low a m q : (q * m <= a < q * m + m -> a mod m = a - q * m)%N.
Proof. intro H. symmetry. apply (N.mod_unique a m q); lia. Qed.

Lemma rune2_high p0 b1 : (194 <= p0 < 224 -> 128 <= (p0 mod 32) * 64 + b1 mod 64)%N.
Proof. intro H. rewrite (mod_low p0 32 6) by lia. generalize (b1 mod 64)%N. lia. Qed.

Lemma rune3_high p0 b1 b2 :
  (224 <= p0 < 240 -> 128 <= b1 <= 191 -> (p0 = 224 -> 160 <= b1) ->
   128 <= (p0 mod 16) * 4096 + (b1 mod 64) * 64 + b2 mod 64)%N.
Proof.
  intros H H1 H0. rewrite (mod_low p0 16 14), (mod_low b1 64 2) by lia.
  generalize (b2 mod 64)%N. lia.
Qed.

Lemma rune4_high p0 b1 b2 b3 :
  (240 <= p0 < 245 -> 128 <= b1 <= 191 -> (p0 = 240 -> 144 <= b1) ->
   128 <= (p0 mod 8) * 262144 + (b1 mod 64) * 4096 + (b2 mod 64) * 64 + b3 mod 64)%N.
Proof.
  intros H H1 H0. rewrite (mod_low p0 8 30), (mod_low b1 64 2) by lia.
  generalize (b2 mod 64)%N (b3 mod 64)%N. lia.
Qed.

Lemma decode_ascii p0 t : (p0 < 128)%N -> decode (p0 :: t) = (p0, 1).
Proof. intro H. unfold decode. destruct (p0 <? 128)%N eqn:E; [reflexivity|lia]. Qed.

(* what decode returns on a non-ASCII first byte: a non-ASCII rune, made of 1..4 bytes of the
   input that are all non-ASCII (RuneError of width 1 for a malformed sequence) *)
Definition high (p : bytes) (d : N * nat) : Prop :=
  (128 <= fst d)%N /\ 1 <= snd d <= length p /\ Forall (fun b => (128 <= b)%N) (firstn (snd d) p).

Lemma decode_multi p0 t : (128 <= p0)%N -> high (p0 :: t) (decode (p0 :: t)).
Proof.
  intro H.
  assert (Herr : high (p0 :: t) (RuneError, 1)).
  { split; [discriminate|]. split; [cbn; lia|]. repeat constructor. exact H. }
  unfold decode. destruct (p0 <? 128)%N eqn:E; [lia|].
  destruct (lead p0) as [[[sz lo] hi]|] eqn:El; [|exact Herr].
  apply lead_spec in El. destruct El as ((Hlo & Hhi) & Hsz & H2 & H3 & H4).
  destruct (length (p0 :: t) <? sz) eqn:Elen; [exact Herr|].
  destruct t as [|b1 t1]; [exact Herr|].
  destruct ((b1 <? lo) || (hi <? b1))%N eqn:Eb1; [exact Herr|].
  assert (Hb1 : (lo <= b1 <= hi)%N) by lia.
  destruct (sz <=? 2) eqn:E2.
  { split; [apply rune2_high; lia|]. split; [cbn; lia|]. repeat constructor; lia. }
  destruct t1 as [|b2 t2]; [exact Herr|].
  destruct (negb (cont b2)) eqn:Eb2; [exact Herr|].
  destruct (sz <=? 3) eqn:E3.
  { split; [apply rune3_high; lia|]. split; [cbn; lia|]. unfold cont in Eb2. repeat constructor; lia. }
  destruct t2 as [|b3 t3]; [exact Herr|].
  destruct (negb (cont b3)) eqn:Eb3; [exact Herr|].
  split; [apply rune4_high; lia|]. split; [cbn; lia|]. unfold cont in Eb2, Eb3. repeat constructor; lia.
Qed.

Lemma decode_width p :
  (p = [] -> snd (decode p) = 0) /\ (p <> [] -> 1 <= snd (decode p)) /\ snd (decode p) <= length p.
Proof.
  destruct p as [|p0 t]; [cbn; repeat split; try lia; congruence|].
  split; [discriminate|].
  destruct (N.lt_ge_cases p0 128) as [H|H].
  - rewrite decode_ascii by assumption. cbn. split; intros; lia.
  - destruct (decode_multi p0 t H) as (_ & Hw & _). split; intros; lia.
Qed.

Lemma decode_width_pos p : p <> [] -> snd (decode p) > 0.
Proof. intro H. apply decode_width in H. lia. Qed.

Lemma decode_nl_iff p : fst (decode p) = NL <-> exists t, p = NL :: t.
Proof.
  split.
  - destruct p as [|p0 t]; [cbn; unfold RuneError, NL; lia|].
    intro H. destruct (N.ltb_spec p0 128).
    + rewrite decode_ascii in H by assumption. cbn in H. subst. eauto.
    + destruct (decode_multi p0 t H0) as [Hh _]. unfold NL in H. lia.
  - intros [t ->]. rewrite decode_ascii; [reflexivity|unfold NL; lia].
Qed.

Lemma decode_nl_width p : fst (decode p) = NL -> snd (decode p) = 1.
Proof.
  intro H. apply decode_nl_iff in H. destruct H as [t ->].
  rewrite decode_ascii; [reflexivity|unfold NL; lia].
Qed.

Lemma plainK_S inp k :
  plainK inp (S k) =
  let '(o, L, C) := plainK inp k in
  let '(r, n) := decode (skipn o inp) in
  if (r =? NL)%N then (o + n, S L, 1) else (o + n, L, S C).
Proof. reflexivity. Qed.

Lemma bnd_S inp k : bnd inp (S k) = bnd inp k + snd (decode (skipn (bnd inp k) inp)).
Proof.
  unfold bnd. rewrite plainK_S.
  destruct (plainK inp k) as [[o L] C]. cbn [fst].
  destruct (decode (skipn o inp)) as [r n]. destruct (r =? NL)%N; reflexivity.
Qed.

Lemma plainK_bnd inp k o L C : plainK inp k = (o, L, C) -> bnd inp k = o.
Proof. intro H. unfold bnd. rewrite H. reflexivity. Qed.

Lemma valid_S inp k : valid inp (S k) -> valid inp k.
Proof. intros H j Hj. apply H. lia. Qed.

Lemma valid_step inp k :
  valid inp k -> snd (decode (skipn (bnd inp k) inp)) > 0 -> valid inp (S k).
Proof.
  intros H Hw j Hj. destruct (Nat.eq_dec j k) as [->|]; [assumption|]. apply H. lia.
Qed.

Lemma bnd_mono inp k' : valid inp k' -> forall k, k < k' -> bnd inp k < bnd inp k'.
Proof.
  induction k' as [|k' IH]; intros Hv k Hk; [lia|].
  rewrite bnd_S. pose proof (Hv k' (Nat.lt_succ_diag_r k')).
  destruct (Nat.eq_dec k k') as [->|]; [lia|].
  specialize (IH (valid_S _ _ Hv) k). lia.
Qed.

Lemma plain_lc_fun inp o L C L' C' :
  plain_lc inp o L C -> plain_lc inp o L' C' -> L = L' /\ C = C'.
Proof.
  intros [k [Hv Hk]] [k' [Hv' Hk']].
  pose proof (plainK_bnd _ _ _ _ _ Hk) as Hb. pose proof (plainK_bnd _ _ _ _ _ Hk') as Hb'.
  destruct (Nat.lt_trichotomy k k') as [Hlt|[->|Hlt]].
  - pose proof (bnd_mono inp k' Hv' k Hlt). lia.
  - rewrite Hk in Hk'. inversion Hk'. auto.
  - pose proof (bnd_mono inp k Hv k' Hlt). lia.
Qed.

Lemma bnd_le_length inp k : valid inp k -> bnd inp k <= length inp.
Proof.
  induction k as [|k IH]; intro Hv; [unfold bnd; cbn; lia|].
  rewrite bnd_S. specialize (IH (valid_S _ _ Hv)).
  destruct (decode_width (skipn (bnd inp k) inp)) as (_ & _ & H).
  rewrite skipn_length in H. lia.
Qed.

(* byte-level reading of the plain line: 1 + number of newline BYTES before the offset *)
Fixpoint count_nl (l : bytes) : nat :=
  match l with [] => 0 | b :: r => (if (b =? NL)%N then 1 else 0) + count_nl r end.

Lemma count_nl_app a b : count_nl (a ++ b) = count_nl a + count_nl b.
Proof. induction a as [|x a IH]; cbn; [reflexivity|]. rewrite IH. lia. Qed.

Lemma firstn_add_skipn {A} (l : list A) o n :
  firstn (o + n) l = firstn o l ++ firstn n (skipn o l).
Proof.
  revert l; induction o as [|o IH]; intro l; [reflexivity|].
  destruct l as [|x l]; cbn; [rewrite firstn_nil; reflexivity|]. rewrite IH. reflexivity.
Qed.

Lemma count_nl_high l : Forall (fun b => (128 <= b)%N) l -> count_nl l = 0.
Proof.
  induction 1 as [|b r Hb _ IH]; [reflexivity|]. cbn [count_nl]. rewrite IH.
  destruct (b =? NL)%N eqn:E; [unfold NL in E; lia|reflexivity].
Qed.

Lemma count_nl_rune p :
  count_nl (firstn (snd (decode p)) p) = if (fst (decode p) =? NL)%N then 1 else 0.
Proof.
  destruct p as [|p0 t]; [reflexivity|].
  destruct (N.ltb_spec p0 128) as [Hlt|Hge].
  - rewrite decode_ascii by assumption. cbn. rewrite Nat.add_0_r. reflexivity.
  - destruct (decode_multi p0 t Hge) as (Hh & _ & Hb). rewrite (count_nl_high _ Hb).
    destruct (fst (decode (p0 :: t)) =? NL)%N eqn:E; [unfold NL in E; lia|reflexivity].
Qed.

Lemma plain_line_bytes inp k o L C :
  plainK inp k = (o, L, C) -> L = 1 + count_nl (firstn o inp).
Proof.
  revert o L C; induction k as [|k IH]; intros o L C H.
  - cbn in H. inversion H. reflexivity.
  - rewrite plainK_S in H. destruct (plainK inp k) as [[o0 L0] C0].
    specialize (IH o0 L0 C0 eq_refl).
    pose proof (count_nl_rune (skipn o0 inp)) as Hr.
    destruct (decode (skipn o0 inp)) as [r n]. cbn [fst snd] in Hr.
    destruct (r =? NL)%N; inversion H; subst;
      rewrite firstn_add_skipn, count_nl_app, Hr; lia.
Qed.

Lemma plain_lc_0 inp : plain_lc inp 0 1 1.
Proof. exists 0. split; [intros j Hj; lia|reflexivity]. Qed.

(* read from a point whose successor offset is the rune boundary k, plain position L:C, and whose
   own line / column are one step behind it: the point read builds is consistent *)
Lemma read_lands inp s k L C :
  valid inp k -> plainK inp k = (off s + w s, L, C) -> off s + w s <= length inp ->
  line s = L -> S (col s) = C ->
  exists s', read inp s = Some s' /\ consistent inp s'.
Proof.
  intros Hv Hk Hlen Hl Hc. unfold read.
  destruct (length inp <? off s + w s) eqn:E; [lia|].
  destruct (decode (skipn (off s + w s) inp)) as [r n] eqn:Ed.
  destruct (decode_width (skipn (off s + w s) inp)) as (_ & _ & Hn).
  rewrite Ed, skipn_length in Hn. cbn [snd] in Hn.
  destruct (r =? NL)%N eqn:Er; eexists; (split; [reflexivity|]);
    exists L, C; cbn [off rn w line col]; (split; [exists k; auto|]);
    (split; [exact Ed|]); (split; [lia|]); rewrite Er; auto.
Qed.

Lemma consistent_decode inp s : consistent inp s -> decode (skipn (off s) inp) = (rn s, w s).
Proof. intros (L & C & _ & H & _). exact H. Qed.

Lemma consistent_within inp s : consistent inp s -> off s + w s <= length inp.
Proof. intros (L & C & _ & _ & H & _). exact H. Qed.

Lemma consistent_plain inp s : consistent inp s ->
  exists L C, plain_lc inp (off s) L C /\
    line s = (if (rn s =? NL)%N then S L else L) /\ col s = (if (rn s =? NL)%N then 0 else C).
Proof.
  intros (L & C & Hp & _ & _ & H). exists L, C. split; [exact Hp|].
  destruct (rn s =? NL)%N; exact H.
Qed.

Lemma read_first_consistent inp : exists s, read inp pt0 = Some s /\ consistent inp s.
Proof. apply (read_lands inp pt0 0 1 1); try reflexivity; [intros j Hj|cbn]; lia. Qed.

Theorem read_preserves_consistent inp s :
  consistent inp s -> w s > 0 -> exists s', read inp s = Some s' /\ consistent inp s'.
Proof.
  intros Hs Hw. destruct (consistent_plain _ _ Hs) as (L & C & [k [Hv Hk]] & Hl & Hc).
  pose proof (consistent_decode _ _ Hs) as Hd.
  apply (read_lands inp s (S k) (if (rn s =? NL)%N then S L else L) (if (rn s =? NL)%N then 1 else S C)).
  - apply valid_step; [assumption|]. rewrite (plainK_bnd _ _ _ _ _ Hk), Hd. exact Hw.
  - rewrite plainK_S, Hk, Hd. destruct (rn s =? NL)%N; reflexivity.
  - exact (consistent_within _ _ Hs).
  - exact Hl.
  - rewrite Hc. destruct (rn s =? NL)%N; reflexivity.
Qed.

Theorem pos_invariant inp s : reach inp s -> consistent inp s.
Proof.
  induction 1 as [s H|s s' Hr IH Hw H].
  - destruct (read_first_consistent inp) as [s0 [H0 Hc]]. congruence.
  - destruct (read_preserves_consistent inp s IH Hw) as [s0 [H0 Hc]]. congruence.
Qed.

Theorem read_never_panics inp s : reach inp s -> w s > 0 -> exists s', read inp s = Some s'.
Proof.
  intros Hr Hw. destruct (read_preserves_consistent inp s (pos_invariant _ _ Hr) Hw) as [s' [H _]].
  eauto.
Qed.

(* lift to "any number of reads from the initial point", as long as the end is not passed *)
Theorem run_invariant inp n s :
  run inp (S n) = Some s ->
  (forall m s', m < n -> run inp (S m) = Some s' -> w s' > 0) ->
  reach inp s.
Proof.
  revert s; induction n as [|n IH]; intros s Hrun Hg.
  - cbn in Hrun. apply reach_first. exact Hrun.
  - change (run inp (S (S n))) with
        (match run inp (S n) with Some s0 => read inp s0 | None => None end) in Hrun.
    destruct (run inp (S n)) as [s0|] eqn:E0; [|discriminate].
    apply reach_next with s0.
    + apply IH; [reflexivity|]. intros m s' Hm. apply Hg. lia.
    + apply (Hg n s0); [lia|exact E0].
    + exact Hrun.
Qed.

Theorem offset_le_length inp s : consistent inp s -> off s <= length inp.
Proof. intro H. pose proof (consistent_within _ _ H). lia. Qed.

Lemma skipn_hd {A} (d b : A) o l : (exists t, skipn o l = b :: t) <-> o < length l /\ nth o l d = b.
Proof.
  revert l; induction o as [|o IH]; intros [|x l]; cbn [skipn length nth].
  - split; [intros [t H]; discriminate | lia].
  - split; [intros [t H]; inversion H; split; [lia|reflexivity] | intros [_ ->]; eauto].
  - split; [intros [t H]; discriminate | lia].
  - rewrite IH, <- Nat.succ_lt_mono. reflexivity.
Qed.

Theorem line_col_spec inp s :
  consistent inp s ->
  exists L C,
    plain_lc inp (off s) L C /\
    L = 1 + count_nl (firstn (off s) inp) /\
    (nth (off s) inp 0%N <> NL \/ length inp <= off s -> line s = L /\ col s = C) /\
    (off s < length inp /\ nth (off s) inp 0%N = NL -> line s = S L /\ col s = 0).
Proof.
  intros Hs. destruct (consistent_plain _ _ Hs) as (L & C & Hp & Hl & Hc).
  exists L, C. split; [exact Hp|].
  split; [destruct Hp as [k [_ Hk]]; eapply plain_line_bytes; eauto|].
  assert (Hnl : (rn s =? NL)%N = true <-> off s < length inp /\ nth (off s) inp 0%N = NL).
  { rewrite <- skipn_hd, <- decode_nl_iff, (consistent_decode _ _ Hs). apply N.eqb_eq. }
  rewrite Hl, Hc. split.
  - intro H. destruct (rn s =? NL)%N eqn:E; [|auto].
    destruct (proj1 Hnl eq_refl) as [E1 E2]. destruct H; [congruence|lia].
  - intro H. apply (proj2 Hnl) in H. rewrite H. auto.
Qed.

(* the recorded finding KF-C19-newline (errpos-at-newline-next-line-col0 in known_findings.json)
   is reachable in the model: ".\n" — the parser point at offset 1 says 2:0,
   the plain position of offset 1 is 1:2 *)
Lemma newline_point :
  reach [46; 10]%N (mkPt 2 0 1 1 NL) /\ plain_lc [46; 10]%N 1 1 2.
Proof.
  split.
  - apply reach_next with (mkPt 1 1 0 1 46%N); [apply reach_first; reflexivity|cbn; lia|reflexivity].
  - exists 1. split; [|reflexivity]. intros j Hj. assert (j = 0) by lia. subst. cbn. lia.
Qed.

Lemma seek_reach fuel inp : forall s target s',
  reach inp s -> seek fuel inp s target = Some s' -> reach inp s' /\ off s' = target.
Proof.
  induction fuel as [|f IH]; intros s target s' Hr H; cbn in H;
    (destruct (off s =? target) eqn:E; [inversion H; subst; split; [assumption|lia]|]);
    (destruct (w s =? 0) eqn:Ew; [discriminate|]); [discriminate|].
  destruct (read inp s) as [s1|] eqn:Er; [|discriminate].
  apply (IH s1 target s'); [|exact H]. apply reach_next with s; [assumption|lia|exact Er].
Qed.

Lemma point_at_reach inp target s :
  point_at inp target = Some s -> reach inp s /\ off s = target.
Proof.
  unfold point_at. destruct (read inp pt0) as [s0|] eqn:E; [|discriminate].
  apply seek_reach. apply reach_first. exact E.
Qed.

Lemma consistent_fun inp s s' :
  consistent inp s -> consistent inp s' -> off s = off s' ->
  line s = line s' /\ col s = col s' /\ w s = w s' /\ rn s = rn s'.
Proof.
  intros Hs Hs' Ho.
  destruct (consistent_plain _ _ Hs) as (L & C & Hp & Hl & Hc).
  destruct (consistent_plain _ _ Hs') as (L' & C' & Hp' & Hl' & Hc').
  pose proof (consistent_decode _ _ Hs) as Hd. pose proof (consistent_decode _ _ Hs') as Hd'.
  rewrite Ho in *. destruct (plain_lc_fun _ _ _ _ _ _ Hp Hp') as [-> ->].
  rewrite Hd in Hd'. inversion Hd' as [[Hr Hw]]. rewrite Hl, Hc, Hl', Hc', Hr. auto.
Qed.

Lemma count_nl_firstn_le n l : count_nl (firstn n l) <= count_nl l.
Proof. rewrite <- (firstn_skipn n l) at 2. rewrite count_nl_app. lia. Qed.

Lemma split_lines_length inp : length (split_lines inp) = S (count_nl inp).
Proof.
  induction inp as [|b t IH]; cbn [split_lines count_nl]; [reflexivity|].
  destruct (b =? NL)%N; [cbn [length]; lia|].
  destruct (split_lines t) as [|l r]; cbn [length] in *; lia.
Qed.

Lemma split_lines_no_nl inp : Forall (fun l => count_nl l = 0) (split_lines inp).
Proof.
  induction inp as [|b t IH]; cbn [split_lines]; [repeat constructor|].
  destruct (b =? NL)%N eqn:E; [constructor; [reflexivity|assumption]|].
  destruct (split_lines t) as [|l r]; [repeat constructor; cbn; rewrite E; reflexivity|].
  inversion IH; subst. constructor; [cbn; rewrite E; assumption|assumption].
Qed.

Lemma count_nl_trunc l : count_nl l = 0 -> count_nl (trunc l) = 0.
Proof.
  intro H. unfold trunc. destruct (60 <? length l); [|assumption].
  rewrite count_nl_app. pose proof (count_nl_firstn_le 57 l).
  change (count_nl [46%N; 46%N; 46%N]) with 0. lia.
Qed.

Lemma get_line_in_range inp ln :
  1 <= ln <= length (split_lines inp) ->
  get_line inp ln = trunc (nth (ln - 1) (split_lines inp) []) /\ count_nl (get_line inp ln) = 0.
Proof.
  intro H. unfold get_line.
  destruct ((0 <? ln) && (ln <=? length (split_lines inp))) eqn:E.
  2:{ apply andb_false_iff in E. destruct E as [E|E];
      [apply Nat.ltb_ge in E|apply Nat.leb_gt in E]; lia. }
  split; [reflexivity|]. apply count_nl_trunc.
  pose proof (split_lines_no_nl inp) as F. rewrite Forall_forall in F.
  apply F. apply nth_In. lia.
Qed.

Lemma uint_bytes_digits d : forallb is_digit (uint_bytes d) = true.
Proof. induction d; cbn [uint_bytes forallb]; try rewrite IHd; reflexivity. Qed.

Lemma digits_uint_bytes d : digits_uint (uint_bytes d) = d.
Proof. induction d; cbn; try rewrite IHd; reflexivity. Qed.

Lemma read_show n : read_nat (show_nat n) = n.
Proof. unfold read_nat, show_nat. rewrite digits_uint_bytes. apply Unsigned.of_to. Qed.

Lemma show_nat_cons n : exists d ds, show_nat n = d :: ds /\ is_digit d = true.
Proof.
  unfold show_nat.
  assert (H : Nat.to_uint n <> Nil).
  { rewrite <- (Unsigned.of_to n) at 1. rewrite Unsigned.to_of. apply unorm_nonnil. }
  pose proof (uint_bytes_digits (Nat.to_uint n)) as Hd.
  destruct (Nat.to_uint n); [congruence| | | | | | | | | |];
    cbn [uint_bytes] in *; eexists; eexists; (split; [reflexivity|reflexivity]).
Qed.

Lemma digits_no_nl l : forallb is_digit l = true -> count_nl l = 0.
Proof.
  induction l as [|b r IH]; [reflexivity|]. cbn [forallb count_nl]. intro H.
  apply andb_prop in H. destruct H as [Hb Hr]. rewrite (IH Hr).
  destruct (b =? NL)%N eqn:E; [|reflexivity]. unfold is_digit, NL in *. lia.
Qed.

(* The scanners of parse_back, stated on texts written as right-nested concatenations, the way
   render and context assemble them. *)
Lemma split_at_nl_app a b : count_nl a = 0 -> split_at_nl (a ++ [NL] ++ b) = (a, b).
Proof.
  change ([NL] ++ b) with (NL :: b). induction a as [|x a IH]; intro H.
  - cbn. reflexivity.
  - cbn [count_nl] in H. simpl app. simpl split_at_nl.
    destruct (x =? NL)%N; [lia|]. rewrite IH by lia. reflexivity.
Qed.

Lemma strip_app p r : strip p (p ++ r) = Some r.
Proof.
  induction p as [|x p IH]; [destruct r; reflexivity|].
  simpl. rewrite N.eqb_refl. exact IH.
Qed.

Lemma strip_app2 p q r : strip (p ++ q) (p ++ q ++ r) = Some r.
Proof. rewrite app_assoc. apply strip_app. Qed.

Lemma span_app (f : N -> bool) a r :
  forallb f a = true -> match r with [] => True | c :: _ => f c = false end ->
  span f (a ++ r) = (a, r).
Proof.
  induction a as [|x a IH]; intros Ha Hr.
  - destruct r as [|c r]; [reflexivity|]. cbn. rewrite Hr. reflexivity.
  - cbn [forallb] in Ha. apply andb_prop in Ha. destruct Ha as [Hx Ha].
    simpl. rewrite Hx, IH by assumption. reflexivity.
Qed.

Lemma forallb_repeat (f : N -> bool) x k : f x = true -> forallb f (repeat x k) = true.
Proof. intro H. induction k; [reflexivity|]. cbn. rewrite H. exact IHk. Qed.

Lemma pos_msg_app ln cl m x : pos_msg ln cl m ++ x = pos_msg ln cl (m ++ x).
Proof. unfold pos_msg. rewrite <- !app_assoc. reflexivity. Qed.

Lemma parse_pos_ok W ln cl m :
  forallb (fun b => negb (is_digit b)) W = true ->
  parse_pos (W ++ pos_msg ln cl m) = Some (ln, cl).
Proof.
  intro HW. unfold parse_pos, pos_msg.
  destruct (show_nat_cons ln) as [d [ds [E Hd]]].
  destruct (show_nat_cons cl) as [d' [ds' [E' Hd']]].
  rewrite (span_app _ W) by (try assumption; rewrite E; cbn; rewrite Hd; reflexivity).
  rewrite (span_app is_digit (show_nat ln)) by (apply uint_bytes_digits || reflexivity).
  rewrite E at 1. cbn [List.app].
  rewrite (span_app is_digit (show_nat cl)) by (apply uint_bytes_digits || reflexivity).
  rewrite E' at 1. rewrite !read_show. reflexivity.
Qed.

Definition hd_text (l : Lang) : bytes := drop_nl (header l).

Lemma header_shape l : header l = hd_text l ++ [NL] /\ count_nl (hd_text l) = 0.
Proof. destruct l; split; reflexivity. Qed.

Lemma tail_shape l ln cl cn en :
  exists W m, tail l ln cl cn en = W ++ pos_msg ln cl m /\
              forallb (fun b => negb (is_digit b)) W = true /\ (W = w_cn \/ W = w_en).
Proof.
  destruct l; cbn [tail].
  - exists w_cn, (cn ++ [NL] ++ w_en ++ pos_msg ln cl en). rewrite <- pos_msg_app.
    repeat split; auto.
  - exists w_cn, cn. repeat split; auto.
  - exists w_en, en. repeat split; auto.
Qed.

(* From the rendered text one recovers exactly the line, the column, the quoted line and the caret
   column; the caret stands after (col - 1) blanks (0 when col = 0). *)
Theorem render_parses_back l ln cl inp cn en ch :
  inp <> [] -> 1 <= ln <= length (split_lines inp) ->
  parse_back (render l ln cl inp cn en ch) =
  Some (ln, cl, Some (get_line inp ln, caret_spaces cl)).
Proof.
  intros Hne Hln.
  destruct (get_line_in_range inp ln Hln) as [_ Hq].
  destruct (header_shape l) as [Hh Hh0].
  destruct (tail_shape l ln cl (fmt_msg cn ch) (fmt_msg en ch)) as [W [m [Ht [HW HWc]]]].
  unfold render, context. destruct inp as [|b0 t0]; [congruence|].
  set (q := get_line (b0 :: t0) ln) in *. rewrite Hh, Ht, <- !app_assoc.
  unfold parse_back.
  rewrite split_at_nl_app by assumption. rewrite strip_app2.
  rewrite split_at_nl_app by assumption. rewrite strip_app.
  rewrite (span_app (N.eqb 32)) by (try apply forallb_repeat; reflexivity).
  rewrite strip_app2. rewrite parse_pos_ok by assumption.
  rewrite repeat_length. reflexivity.
Qed.

Theorem render_parses_back_empty l ln cl cn en ch :
  parse_back (render l ln cl [] cn en ch) = Some (ln, cl, None).
Proof.
  destruct (header_shape l) as [Hh Hh0].
  destruct (tail_shape l ln cl (fmt_msg cn ch) (fmt_msg en ch)) as [W [m [Ht [HW HWc]]]].
  unfold render, context. rewrite Hh, Ht.
  rewrite <- app_assoc, List.app_nil_l. unfold parse_back.
  rewrite split_at_nl_app by assumption.
  assert (Hs : strip (bar ++ gutter) (W ++ pos_msg ln cl m) = None).
  { destruct HWc as [-> | ->]; reflexivity. }
  rewrite Hs. rewrite parse_pos_ok by assumption. reflexivity.
Qed.

Theorem render_cn_only ln cl inp cn en en' ch :
  render Cn ln cl inp cn en ch = render Cn ln cl inp cn en' ch /\
  render Cn ln cl inp cn en ch = h_cn ++ context ln cl inp ++ w_cn ++ pos_msg ln cl (fmt_msg cn ch).
Proof. split; reflexivity. Qed.

Theorem render_en_only ln cl inp cn cn' en ch :
  render En ln cl inp cn en ch = render En ln cl inp cn' en ch /\
  render En ln cl inp cn en ch = h_en ++ context ln cl inp ++ w_en ++ pos_msg ln cl (fmt_msg en ch).
Proof. split; reflexivity. Qed.

Theorem render_bi_both ln cl inp cn en ch :
  exists pre,
    render Bi ln cl inp cn en ch =
    pre ++ (w_cn ++ pos_msg ln cl (fmt_msg cn ch)) ++ [NL] ++ (w_en ++ pos_msg ln cl (fmt_msg en ch)).
Proof.
  exists (h_bi ++ context ln cl inp). unfold render, tail, header.
  rewrite <- !app_assoc. reflexivity.
Qed.

Theorem context_language_independent l l' ln cl inp cn en ch :
  exists a b a' b',
    render l ln cl inp cn en ch = a ++ context ln cl inp ++ b /\
    render l' ln cl inp cn en ch = a' ++ context ln cl inp ++ b'.
Proof. unfold render. do 4 eexists. split; reflexivity. Qed.

Lemma msg_table_ok : table_ok msg_table = true.
Proof. vm_compute. reflexivity. Qed.

(* Sprintf on a well-formed template with a verb is the substitution of the encoded rune *)
Lemma fmt_msg_verb t ch : ch <> 0%N -> has_verb t = true -> fmt_msg t ch = subst_c t (encode_rune ch).
Proof.
  intros Hc Hv. unfold fmt_msg. destruct (ch =? 0)%N eqn:E; [lia|]. rewrite Hv. reflexivity.
Qed.

(* Context.Parse stores its own Config.ParseErrorLanguage (>= 0) in the error value: the text then
   does not depend on the package-level default, the only state VMs share on this path. *)
Theorem error_text_independent_of_default err_lang d d' ln cl inp cn en ch :
  (0 <= err_lang)%Z ->
  error_text err_lang d ln cl inp cn en ch = error_text err_lang d' ln cl inp cn en ch.
Proof.
  intro H. unfold error_text. destruct (err_lang <? 0)%Z eqn:E; [lia|reflexivity].
Qed.

(* and a negative setting does fall back to the shared default: by design, stated *)
Lemma error_text_negative_uses_default :
  error_text (-1) 1 1 1 [] [65%N] [66%N] 0 <> error_text (-1) 2 1 1 [] [65%N] [66%N] 0.
Proof. vm_compute. discriminate. Qed.

Theorem quoted_line_consistent inp s :
  consistent inp s ->
  1 <= line s <= length (split_lines inp) /\
  get_line inp (line s) = trunc (nth (line s - 1) (split_lines inp) []) /\
  line s - 1 = count_nl (firstn (off s) inp) + (if (rn s =? NL)%N then 1 else 0).
Proof.
  intros Hs. destruct (consistent_plain _ _ Hs) as (L & C & [k [Hv Hk]] & Hl & _).
  pose proof (consistent_decode _ _ Hs) as Hd.
  pose proof (plain_line_bytes inp k _ _ _ Hk) as HL.
  pose proof (count_nl_app (firstn (off s) inp) (skipn (off s) inp)) as Hcnt.
  rewrite firstn_skipn in Hcnt.
  (* the rune at the offset lies in the rest of the input: a newline there is counted *)
  pose proof (count_nl_rune (skipn (off s) inp)) as Hr. rewrite Hd in Hr. cbn [fst snd] in Hr.
  pose proof (count_nl_firstn_le (w s) (skipn (off s) inp)) as Hle.
  assert (Hb : 1 <= line s <= length (split_lines inp) /\
               line s - 1 = count_nl (firstn (off s) inp) + (if (rn s =? NL)%N then 1 else 0)).
  { rewrite split_lines_length, Hl. destruct (rn s =? NL)%N; lia. }
  split; [apply Hb|]. split; [apply get_line_in_range, Hb|apply Hb].
Qed.

(* maxFailPos is 1:1 at offset 0, otherwise a point the parser held at that offset *)
Lemma fail_pos_cases inp o ln cl :
  fail_pos inp o = Some (ln, cl) ->
  (o = 0 /\ ln = 1) \/ exists s, reach inp s /\ off s = o /\ line s = ln.
Proof.
  unfold fail_pos. destruct (o =? 0) eqn:E; [intro H; inversion H; left; lia|].
  destruct (point_at inp o) as [s|] eqn:Ep; [|discriminate].
  intro H. inversion H; subst. right. exists s. destruct (point_at_reach _ _ _ Ep). auto.
Qed.

Theorem fail_pos_line_in_range inp o ln cl :
  fail_pos inp o = Some (ln, cl) -> 1 <= ln <= length (split_lines inp).
Proof.
  intro H. destruct (fail_pos_cases _ _ _ _ H) as [[_ ->]|(s & Hr & _ & <-)].
  - rewrite split_lines_length. lia.
  - apply (quoted_line_consistent inp s (pos_invariant _ _ Hr)).
Qed.

Theorem fail_pos_offset_le inp o ln cl : fail_pos inp o = Some (ln, cl) -> o <= length inp.
Proof.
  intro H. destruct (fail_pos_cases _ _ _ _ H) as [[-> _]|(s & Hr & <- & _)]; [lia|].
  apply (offset_le_length inp s (pos_invariant _ _ Hr)).
Qed.

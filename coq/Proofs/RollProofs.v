(* Lemmas about Model/Roll.v: range, exact preimage count, fast-check soundness,
   acceptance > 1/2, "returns the face of the first accepted word"; and about Model/PCG.v:
   the two-word step is the 128-bit LCG, marshal / unmarshal round trip, resuming. *)
From Coq Require Import NArith ZArith List Bool Lia.
From DS Require Import Model.PCG Model.Roll.
Open Scope N_scope.

Definition MaxSides : N := 9223372036854775806.   (* MaxInt64 - 1 *)

Lemma W64_val : W64 = 18446744073709551616. Proof. reflexivity. Qed.
Lemma MaxUint64_val : MaxUint64 = 18446744073709551615. Proof. reflexivity. Qed.
Lemma W64_pow : W64 = 2 ^ 64. Proof. reflexivity. Qed.
(* the three above only spell the constants out, to rewrite with before lia *)

Lemma is_pow2_exp n : 0 < n -> is_pow2 n = true -> n = 2 ^ N.log2 n.
Proof.
  intros Hn Hp. unfold is_pow2 in Hp. apply N.eqb_eq in Hp.
  destruct (N.log2_spec n Hn) as [Hlo Hhi].
  destruct (N.eq_dec n (2 ^ N.log2 n)) as [E|E]; [exact E|exfalso].
  assert (Hlt : 2 ^ N.log2 n <= n - 1) by lia.
  assert (Hl : N.log2 (n - 1) = N.log2 n).
  { apply N.log2_unique; [lia|]. rewrite N.pow_succ_r' in *. lia. }
  assert (B1 : N.testbit n (N.log2 n) = true) by (apply N.bit_log2; lia).
  assert (B2 : N.testbit (n - 1) (N.log2 n) = true).
  { rewrite <- Hl. apply N.bit_log2. assert (0 < 2 ^ N.log2 n) by (apply N.neq_0_lt_0, N.pow_nonzero; lia). lia. }
  assert (B : N.testbit (N.land n (n - 1)) (N.log2 n) = true)
    by (rewrite N.land_spec, B1, B2; reflexivity).
  rewrite Hp in B. rewrite N.bits_0 in B. discriminate.
Qed.

Lemma pow2_mask v n : 0 < n -> is_pow2 n = true -> N.land v (n - 1) = v mod n.
Proof.
  intros Hn Hp. pose proof (is_pow2_exp n Hn Hp) as E.
  rewrite E at 1 2. rewrite <- N.pred_sub, <- N.ones_equiv. apply N.land_ones.
Qed.

Lemma pow2_divides_W64 n : 0 < n -> n < W64 -> is_pow2 n = true -> W64 = n * (W64 / n).
Proof.
  intros Hn Hlt Hp. pose proof (is_pow2_exp n Hn Hp) as E.
  set (k := N.log2 n) in *.
  assert (Hk : k < 64).
  { apply N.log2_lt_pow2; [lia|]. rewrite <- W64_pow. exact Hlt. }
  rewrite E. rewrite W64_pow.
  replace 64 with (k + (64 - k)) at 1 2 by lia.
  rewrite N.pow_add_r. rewrite N.mul_comm at 2. rewrite N.div_mul.
  - reflexivity.
  - apply N.pow_nonzero. lia.
Qed.

Lemma ceiling_bound n : 0 < n -> ceiling n = n * (MaxUint64 / n) /\ MaxUint64 < ceiling n + n.
Proof.
  intros Hn. unfold ceiling.
  pose proof (N.div_mod MaxUint64 n) as D. pose proof (N.mod_upper_bound MaxUint64 n) as B.
  generalize dependent (MaxUint64 / n). generalize dependent (MaxUint64 mod n). lia.
Qed.

Lemma ceiling_multiple n : 0 < n -> ceiling n = n * (ceiling n / n).
Proof.
  intros Hn. destruct (ceiling_bound n Hn) as [E _].
  rewrite E at 2. rewrite (N.mul_comm n (MaxUint64 / n)), N.div_mul by lia. exact E.
Qed.

Lemma acc_bound_multiple n : 0 < n -> n < W64 -> acc_bound n = n * (acc_bound n / n).
Proof.
  intros Hn Hlt. unfold acc_bound. destruct (is_pow2 n) eqn:Hp.
  - apply pow2_divides_W64; assumption.
  - apply ceiling_multiple; assumption.
Qed.

Lemma fast_check_sound n v : 0 < n -> n < W64 -> v <= MaxUint64 - n -> v < ceiling n.
Proof.
  intros Hn Hw Hv. destruct (ceiling_bound n Hn) as [_ B]. rewrite MaxUint64_val, W64_val in *. lia.
Qed.

Lemma ceiling_le n : ceiling n <= MaxUint64.
Proof. apply N.le_sub_l. Qed.

Lemma accept_more_than_half n : 0 < n -> n <= MaxSides -> W64 < 2 * acc_bound n.
Proof.
  intros Hn Hb. unfold acc_bound. destruct (is_pow2 n); [rewrite W64_val; lia|].
  destruct (ceiling_bound n Hn) as [_ B]. unfold MaxSides in Hb. rewrite MaxUint64_val, W64_val in *. lia.
Qed.

(* every face k in 1..n has exactly acc_bound n / n accepted 64-bit words *)
Lemma face_preimages n k v :
  0 < n -> n < W64 -> 1 <= k <= n ->
  (v < acc_bound n /\ face n v = k) <->
  (exists j, j < acc_bound n / n /\ v = j * n + (k - 1)).
Proof.
  intros Hn Hlt Hk. pose proof (acc_bound_multiple n Hn Hlt) as Hq.
  unfold face.
  remember (acc_bound n / n) as q. remember (acc_bound n) as c.
  split.
  - intros [Hv Hf]. exists (v / n). split.
    + apply N.div_lt_upper_bound; lia.
    + pose proof (N.div_mod v n ltac:(lia)) as E.
      remember (v / n) as a. remember (v mod n) as b. lia.
  - intros [j [Hj ->]]. split.
    + nia.
    + rewrite (N.add_comm (j*n)), N.mod_add by lia. rewrite N.mod_small; lia.
Qed.

Lemma face_preimage_unique n k j1 j2 :
  0 < n -> 1 <= k <= n -> j1 * n + (k - 1) = j2 * n + (k - 1) -> j1 = j2.
Proof. intros Hn Hk E. nia. Qed.

Lemma face_range n v : 0 < n -> 1 <= face n v <= n.
Proof.
  intros Hn. unfold face. pose proof (N.mod_upper_bound v n). generalize dependent (v mod n). lia.
Qed.

Section Source.
  Variable S : Type.
  Variable next : S -> N * S.
  (* the source yields 64-bit words (true of every Go Uint64(); proved of PCG below) *)
  Hypothesis next_word : forall s, fst (next s) < W64.

  Lemma first_accepted_redraw fuel n s :
    first_accepted next fuel n s =
    let '(v, s1) := next s in redraw next fuel (acc_bound n) v s1.
  Proof.
    revert s. induction fuel as [|f IH]; intros s; cbn [first_accepted redraw];
      destruct (next s) as [v s1]; unfold accepted.
    - destruct (v <? acc_bound n); reflexivity.
    - destruct (v <? acc_bound n); [reflexivity|]. apply IH.
  Qed.

  Definition map_face (n : N) (o : outcome (N * S)) : outcome (N * S) :=
    match o with Done (v, s') => Done (face n v, s') | OutOfFuel => OutOfFuel end.

  Lemma redraw_hit fuel c v s : v < c -> redraw next fuel c v s = Done (v, s).
  Proof.
    intros H. destruct fuel; cbn [redraw]; destruct (N.ltb_spec v c); try reflexivity; lia.
  Qed.

  Lemma roll64_u_first_accepted fuel n s :
    0 < n -> n <= MaxSides ->
    roll64_u next fuel n s = map_face n (first_accepted next fuel n s).
  Proof.
    intros Hn Hb. unfold MaxSides in Hb.
    assert (Hlt : n < W64) by (rewrite W64_val; lia).
    rewrite first_accepted_redraw. unfold roll64_u.
    pose proof (next_word s) as Hw.
    destruct (next s) as [v s1]. cbn [fst] in Hw. unfold acc_bound.
    assert (Hsmall : forall x, (x mod n + 1) mod W64 = x mod n + 1).
    { intros x. apply N.mod_small. pose proof (N.mod_upper_bound x n ltac:(lia)). lia. }
    destruct (is_pow2 n) eqn:Hp.
    - rewrite pow2_mask by assumption. rewrite Hsmall.
      rewrite redraw_hit by exact Hw. reflexivity.
    - destruct (N.ltb_spec (MaxUint64 - n) v) as [Hgt|Hle].
      + destruct (redraw next fuel (ceiling n) v s1) as [[v' s2]|]; cbn [map_face];
          [rewrite Hsmall|]; reflexivity.
      + rewrite redraw_hit by (apply fast_check_sound; assumption).
        cbn [map_face]. rewrite Hsmall. reflexivity.
  Qed.

  Lemma first_accepted_is_accepted fuel n s v s' :
    first_accepted next fuel n s = Done (v, s') -> accepted n v = true.
  Proof.
    revert s. induction fuel as [|f IH]; intros s; cbn [first_accepted];
      destruct (next s) as [w s1]; destruct (accepted n w) eqn:E.
    1, 3: intros [= <- _]; exact E.
    - discriminate.
    - apply IH.
  Qed.

  Fixpoint iter_next (k : nat) (s : S) : S :=
    match k with O => s | Datatypes.S k' => iter_next k' (snd (next s)) end.

  Lemma first_accepted_prefix fuel n s v s' :
    first_accepted next fuel n s = Done (v, s') ->
    exists k, (k <= fuel)%nat /\ s' = iter_next (Datatypes.S k) s /\
              v = fst (next (iter_next k s)) /\
              forall j, (j < k)%nat -> accepted n (fst (next (iter_next j s))) = false.
  Proof.
    revert s. induction fuel as [|f IH]; intros s; cbn [first_accepted];
      destruct (next s) as [w s1] eqn:En; destruct (accepted n w) eqn:E; intros H.
    1, 3: inversion H; subst; exists O; cbn [iter_next]; rewrite En; cbn [fst snd];
      repeat split; try lia; intros j Hj; lia.
    - discriminate.
    - destruct (IH s1 H) as [k [Hk [Hs [Hv Hrej]]]].
      exists (Datatypes.S k). cbn [iter_next]. rewrite En. cbn [snd]. repeat split; try lia; try assumption.
      intros j Hj. destruct j as [|j]; cbn [iter_next].
      + rewrite En. exact E.
      + rewrite En. cbn [snd]. apply Hrej. lia.
  Qed.

  Lemma to_u64_small z : (0 <= z < Z.of_N W64)%Z -> to_u64 z = Z.to_N z.
  Proof. intros H. unfold to_u64. rewrite Z.mod_small by exact H. reflexivity. Qed.

  Lemma to_i64_small r : r < 9223372036854775808 -> to_i64 r = Z.of_N r.
  Proof.
    intros H. unfold to_i64. rewrite N.mod_small by (rewrite W64_val; lia).
    destruct (Z.ltb_spec (Z.of_N r) 9223372036854775808); [reflexivity|lia].
  Qed.

  Lemma roll64_range fuel d s r s' :
    (1 <= d <= MaxInt64 - 1)%Z ->
    roll64 next fuel d s = Done (r, s') -> (1 <= r <= d)%Z.
  Proof.
    intros Hd. unfold roll64. unfold MaxInt64 in *.
    destruct (Z.ltb_spec (9223372036854775807 - 1) d) as [H|H]; [lia|].
    rewrite to_u64_small by (rewrite W64_val; lia).
    rewrite roll64_u_first_accepted by (unfold MaxSides; lia).
    destruct (first_accepted next fuel (Z.to_N d) s) as [[v s1]|]; cbn [map_face]; [|discriminate].
    intros E. inversion E; subst.
    pose proof (face_range (Z.to_N d) v ltac:(lia)) as Hf.
    rewrite to_i64_small by lia. lia.
  Qed.

  Lemma roll_range fuel d mode s r s' :
    (1 <= d <= MaxInt64 - 1)%Z ->
    roll next fuel d mode s = Done (r, s') -> (1 <= r <= d)%Z.
  Proof.
    intros Hd. unfold roll.
    destruct (Z.eqb_spec d 0); [lia|].
    destruct (Z.eqb_spec mode (-1)); [intros E; inversion E; lia|].
    destruct (Z.eqb_spec mode 1); [intros E; inversion E; lia|].
    apply roll64_range; assumption.
  Qed.

  Lemma roll_min_mode fuel d s :
    roll next fuel d (-1) s = Done ((if (d =? 0)%Z then 0 else 1)%Z, s).
  Proof. unfold roll. destruct (d =? 0)%Z; reflexivity. Qed.

  Lemma roll_max_mode fuel d s : roll next fuel d 1 s = Done (d, s).
  Proof. unfold roll. destruct (Z.eqb_spec d 0); subst; reflexivity. Qed.

  Lemma roll_minmax_consumes_nothing fuel d s :
    roll next fuel d (-1) s = Done ((if (d =? 0)%Z then 0 else 1)%Z, s) /\
    roll next fuel d 1 s = Done (d, s).
  Proof. split; [apply roll_min_mode|apply roll_max_mode]. Qed.

  Lemma roll_maxint_returns_zero fuel s : roll next fuel MaxInt64 0 s = Done (0%Z, s).
  Proof. reflexivity. Qed.
End Source.

Lemma pcg_next_word s : fst (pcg_next s) < W64.
Proof.
  unfold pcg_next, pcg_out, rotr64. cbn [fst]. apply N.mod_upper_bound. rewrite W64_val. lia.
Qed.

Lemma pcg_step_wf s : pcg_wf (pcg_step s).
Proof.
  unfold pcg_wf, pcg_step, pcg_add, pcg_multiply. cbn [hi lo].
  split; apply N.mod_upper_bound; rewrite W64_val; lia.
Qed.

Lemma pcg_step_is_lcg128 s :
  pcg_wf s -> pcg_val (pcg_step s) = (pcg_val s * multiplier + increment) mod W128.
Proof.
  intros [Hh Hl]. unfold pcg_val, pcg_step, pcg_add, pcg_multiply. cbn [hi lo].
  assert (EM : multiplier = mulHigh * W64 + mulLow).
  { unfold mulHigh, mulLow. rewrite N.mul_comm. apply N.div_mod. rewrite W64_val; lia. }
  assert (EI : increment = incHigh * W64 + incLow).
  { unfold incHigh, incLow. rewrite N.mul_comm. apply N.div_mod. rewrite W64_val; lia. }
  rewrite EM, EI.
  assert (BML : mulLow < W64) by (apply N.mod_upper_bound; rewrite W64_val; lia).
  assert (BIL : incLow < W64) by (apply N.mod_upper_bound; rewrite W64_val; lia).
  generalize dependent mulHigh. generalize dependent mulLow.
  generalize dependent incHigh. generalize dependent incLow.
  intros iL BIL iH _ mL BML mH _.
  destruct s as [h l]. cbn [hi lo] in *.
  unfold W128.
  assert (Wpos : W64 <> 0) by (rewrite W64_val; lia).
  pose proof (N.div_mod (l * mL) W64 Wpos) as D1.
  pose proof (N.mod_upper_bound (l * mL) W64 Wpos) as B1.
  remember ((l * mL) / W64) as p1. remember ((l * mL) mod W64) as r1.
  pose proof (N.div_mod (p1 + h * mL + l * mH) W64 Wpos) as D2.
  pose proof (N.mod_upper_bound (p1 + h * mL + l * mH) W64 Wpos) as B2.
  remember ((p1 + h * mL + l * mH) / W64) as p2. remember ((p1 + h * mL + l * mH) mod W64) as r2.
  pose proof (N.div_mod (r1 + iL) W64 Wpos) as D3.
  pose proof (N.mod_upper_bound (r1 + iL) W64 Wpos) as B3.
  remember ((r1 + iL) / W64) as c. remember ((r1 + iL) mod W64) as r3.
  pose proof (N.div_mod (r2 + iH + c) W64 Wpos) as D4.
  pose proof (N.mod_upper_bound (r2 + iH + c) W64 Wpos) as B4.
  remember ((r2 + iH + c) / W64) as p4. remember ((r2 + iH + c) mod W64) as r4.
  clear Heqp1 Heqr1 Heqp2 Heqr2 Heqc Heqr3 Heqp4 Heqr4.
  remember W64 as W eqn:HW. clear HW.
  apply N.mod_unique with (q := h * mH + p2 + p4).
  - nia.
  - (* polynomial identity after eliminating the remainders *)
    assert (E1 : r1 = l * mL - W * p1) by lia.
    assert (E2 : r2 = p1 + h * mL + l * mH - W * p2) by lia.
    assert (E3 : r3 = r1 + iL - W * c) by lia.
    assert (E4 : r4 = r2 + iH + c - W * p4) by lia.
    nia.
Qed.

Lemma be_val_app l1 l2 acc : be_val (l1 ++ l2) acc = be_val l2 (be_val l1 acc).
Proof. revert acc; induction l1 as [|b r IH]; intros acc; cbn; [reflexivity|apply IH]. Qed.

Lemma be_bytes_length k x : length (be_bytes k x) = k.
Proof.
  revert x; induction k as [|k IH]; intros x; cbn [be_bytes]; [reflexivity|].
  rewrite app_length, IH. cbn. lia.
Qed.

Lemma be_val_be_bytes k x acc : x < 256 ^ N.of_nat k -> be_val (be_bytes k x) acc = acc * 256 ^ N.of_nat k + x.
Proof.
  revert x acc; induction k as [|k IH]; intros x acc Hx.
  - cbn in *. lia.
  - cbn [be_bytes]. rewrite be_val_app. cbn [be_val].
    rewrite Nat2N.inj_succ, N.pow_succ_r' in *.
    rewrite IH by (apply N.div_lt_upper_bound; lia).
    pose proof (N.div_mod x 256 ltac:(lia)). remember (x / 256) as q. remember (x mod 256) as r.
    remember (256 ^ N.of_nat k) as P. nia.
Qed.

Lemma firstn_app_len {A} (l1 l2 : list A) n : length l1 = n -> firstn n (l1 ++ l2) = l1.
Proof. intros <-. rewrite <- (Nat.add_0_r (length l1)), firstn_app_2. apply app_nil_r. Qed.
Lemma skipn_app_len {A} (l1 l2 : list A) n : length l1 = n -> skipn n (l1 ++ l2) = l2.
Proof. intros <-. rewrite skipn_app, skipn_all, Nat.sub_diag. reflexivity. Qed.

Lemma pcg_marshal_roundtrip s : pcg_wf s -> pcg_unmarshal (pcg_marshal s) = Some s.
Proof.
  intros [Hh Hl]. unfold pcg_unmarshal, pcg_marshal.
  rewrite app_length, !be_bytes_length.
  change (Nat.ltb (8 + 8) 16) with false. cbv iota.
  rewrite (firstn_app_len _ _ 8) by apply be_bytes_length.
  rewrite (skipn_app_len _ _ 8) by apply be_bytes_length.
  rewrite <- (app_nil_r (be_bytes 8 (lo s))) at 1.
  rewrite (firstn_app_len _ _ 8) by apply be_bytes_length.
  rewrite !be_val_be_bytes by (rewrite W64_val in *; cbn; lia).
  destruct s as [h l]; cbn [hi lo]. f_equal.
Qed.

Lemma pcg_draws_S_wf k : forall s, pcg_wf (snd (pcg_draws (S k) s)).
Proof.
  induction k as [|k IH]; intros s; [apply pcg_step_wf|].
  specialize (IH (pcg_step s)). remember (S k) as k1. cbn [pcg_draws]. unfold pcg_next.
  destruct (pcg_draws k1 (pcg_step s)). exact IH.
Qed.

Lemma pcg_draws_wf k : forall s, pcg_wf s \/ k <> O -> pcg_wf (snd (pcg_draws k s)) \/ (k = O).
Proof. intros s _. destruct k; [right; reflexivity|left; apply pcg_draws_S_wf]. Qed.

Lemma pcg_resume k s : pcg_wf s ->
  match pcg_unmarshal (pcg_marshal s) with
  | Some s' => pcg_draws k s' = pcg_draws k s
  | None => False
  end.
Proof. intros H. rewrite pcg_marshal_roundtrip by exact H. reflexivity. Qed.

Lemma pcg_draws_app a b s :
  pcg_draws (a + b) s = let '(v1, s1) := pcg_draws a s in let '(v2, s2) := pcg_draws b s1 in (v1 ++ v2, s2).
Proof.
  revert s; induction a as [|a IH]; intros s; cbn [Nat.add pcg_draws].
  - destruct (pcg_draws b s); reflexivity.
  - destruct (pcg_next s) as [v s1]. rewrite IH.
    destruct (pcg_draws a s1) as [v1 s2]. destruct (pcg_draws b s2) as [v2 s3]. reflexivity.
Qed.

Lemma pcg_marshal_length s : length (pcg_marshal s) = 16%nat.
Proof. unfold pcg_marshal. rewrite app_length, !be_bytes_length. reflexivity. Qed.

(* a seed shorter than 16 bytes is rejected by UnmarshalBinary (Init then keeps the zero state) *)
Lemma pcg_unmarshal_short d : (length d < 16)%nat -> pcg_unmarshal d = None.
Proof.
  intros H. unfold pcg_unmarshal. destruct (Nat.ltb_spec (length d) 16); [reflexivity|lia].
Qed.

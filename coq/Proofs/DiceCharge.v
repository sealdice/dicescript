(* C07 (VM half, dice): "the operation counter accounts for ... every die rolled".

   WHAT THE MODEL (Model/VM.v `step`) CHARGES, per dice opcode, and what it rolls
     dice (XdY)            numOpCountAdd(times) FIRST, then `times` dice (roll_many (Z.to_nat times)).
                           over budget -> Fail EBudget, generator untouched.
     coc.bonus/penalty n   numOpCountAdd(n) FIRST, then 1 + n dice (the d100 and n tens dice: roll ... 100, coc_loop n).
                           The d100 is paid for by the 1 the loop head charges for the instruction.
     dice.wod / dice.dc    numOpCountAdd(pool of the round) at the START of every round, then that round's pool dice;
                           the round that breaks the limit is not rolled, the earlier rounds were (generator advanced).
     dice.fate             numOpCountAdd(4) FIRST, then 4 dice (fate_loop 4); over budget -> Fail EBudget, generator untouched.
                           (/repo charges them since e3db4d5.)
   "A die" = one call of Roll.roll (one iteration of the rolling loops), whatever the mode (min / max mode draw no word).
   The draws of Array.shuffle / rand / randSize (ctxRandIntn, Model `roll1`) are NOT dice and are not counted here
   (they are not charged either: one dispatch for up to len-1 draws).

   exec_dice               instrumented twin of VM.exec: also returns the number of dice rolled,
                           summed over the activation AND every sub-VM activation it starts (function calls,
                           computed values); exec_dice_fst: it computes exactly VM.exec.
   C07_dice_bounded_by_budget   under a limit 0 < L <= MaxInt64 - 100, on a chain of contexts within the budget:
                              dice <= max 0 (L - c0)          (no slack; attained: C07_dice_bound_tight)
                           and for a finished run dice <= c_final - c0 (C07_dice_paid_by_counter).
   The sub-VM twins (..._s) are VMDepth's twins (..._d) with `+` in place of `max`; the chain invariant is that of
   VMDepth (counters within the budget), kept by VMSafety.step_chain. *)
From Coq Require Import String Ascii NArith ZArith List Bool Lia.
From DS Require Import Model.Str Model.PCG Model.Roll Model.Dice Model.Value Model.VM Model.CodeWf
  Proofs.VMFacts Proofs.VMSafety Proofs.VMDepth.
Import ListNotations.
Open Scope Z_scope.

(* number of dice rolled, under names of its own so that the twins below read apart from VMDepth's (nat, 0, max);
   acct = the same as an integer (what the counter must have paid) *)
Definition cnt : Type := nat.
Definition cz : cnt := O.
Definition cadd (a b : cnt) : cnt := (a + b)%nat.
Definition acct (a : cnt) : Z := Z.of_nat a.

Lemma acct_cz : acct cz = 0. Proof. reflexivity. Qed.
Lemma acct_cadd : forall a b, acct (cadd a b) = acct a + acct b.
Proof. intros a b. unfold acct, cadd. lia. Qed.

Definition RS (A : Type) : Type := (R A * cnt)%type.

Definition rbinds {A B} (r : RS A) (k : A -> world -> RS B) : RS B :=
  match fst r with
  | ROk a w => (fst (k a w), cadd (snd r) (snd (k a w)))
  | RFail e w => (RFail e w, snd r)
  | RPanic s => (RPanic s, snd r)
  | RFuel => (RFuel, snd r)
  | RUnsup s => (RUnsup s, snd r)
  end.
Definition rmapws {A} (f : world -> world) (r : RS A) : RS A := (rmapw f (fst r), snd r).

Section OpsS.
  Variable call : machine -> result.      (* run a sub-VM: its result ... *)
  Variable csub : machine -> cnt.         (* ... and the dice rolled in it and below it *)
  Variable E : env.

  (* VM.computed_execute; where the sub-VM is started: its dice *)
  Definition computed_execute_s (cid : N) (k : nat) (w : world) : RS value :=
    match nth_error (w_chain w) k with
    | None => (RUnsup "context index", cz)
    | Some t =>
      let pre := firstn k (w_chain w) in
      let rest := skipn (S k) (w_chain w) in
      let '(mapid, h1) := cattrs_force cid (w_heap w) in
      let ops1 := wrap64 (c_ops t + 100) in
      let t1 := {| c_attrs := c_attrs t; c_ops := ops1 |} in
      let w1 := w_set_chain (w_set_heap w h1) (chain_put pre t1 rest) in
      if limit_hit E ops1 then (RFail EBudget w1, cz)
      else match f_lookup (e_ftab E) cid with
           | None => (RUnsup "function table", cz)
           | Some d =>
             match f_code d with
             | None => (RUnsup "lazy body", cz)
             | Some c =>
               let sub := {| m_fr := new_frame c (Some (f_expr d));
                             m_w := w_set_chain w1 ({| c_attrs := mapid; c_ops := ops1 |} :: t1 :: rest) |} in
               (match call sub with
                | Fin m' =>
                  match w_chain (m_w m') with
                  | s' :: t' :: rest' =>
                    let ret := match fr_live (m_fr m') with v :: _ => v | [] => VNull end in
                    ROk ret (w_set_chain (m_w m') (chain_put pre {| c_attrs := c_attrs t'; c_ops := c_ops s' |} rest'))
                  | _ => RUnsup "context chain"
                  end
                | Fail e m' =>
                  match w_chain (m_w m') with
                  | s' :: t' :: rest' =>
                    RFail e (w_set_chain (m_w m') (chain_put pre {| c_attrs := c_attrs t'; c_ops := Z.max (c_ops t') (c_ops s') |} rest'))
                  | _ => RUnsup "context chain"
                  end
                | Panic s => RPanic s
                | OutOfFuel => RFuel
                | Unsupported s => RUnsup s
                end, csub sub)
             end
           end
    end.

  Definition func_invoke_s (fid : N) (args : list value) (w : world) : RS value :=
    match f_lookup (e_ftab E) fid, w_chain w with
    | None, _ => (RUnsup "function table", cz)
    | _, [] => (RUnsup "context chain", cz)
    | Some d, self :: ups =>
      if negb (Nat.eqb (length (f_params d)) (length args)) then (RFail ECall w, cz)
      else
        let '(mapid, h1) := alloc_map (bind_params (f_params d) args []) (w_heap w) in
        let ops1 := wrap64 (c_ops self + 100) in
        let self1 := {| c_attrs := c_attrs self; c_ops := ops1 |} in
        let w1 := w_set_chain (w_set_heap w h1) (self1 :: ups) in
        if limit_hit E ops1 then (RFail EBudget w1, cz)
        else match f_code d with
             | None => (RUnsup "lazy body", cz)
             | Some c =>
               let sub := {| m_fr := new_frame c None;
                             m_w := w_set_chain w1 ({| c_attrs := mapid; c_ops := ops1 |} :: self1 :: ups) |} in
               (match call sub with
                | Fin m' =>
                  match w_chain (m_w m') with
                  | s' :: t' :: rest' =>
                    let ret := match fr_live (m_fr m') with v :: _ => v | [] => VNull end in
                    ROk ret (w_set_chain (m_w m') ({| c_attrs := c_attrs t'; c_ops := c_ops s' |} :: rest'))
                  | _ => RUnsup "context chain"
                  end
                | Fail e m' =>
                  match w_chain (m_w m') with
                  | s' :: t' :: rest' =>
                    RFail e (w_set_chain (m_w m') ({| c_attrs := c_attrs t'; c_ops := Z.max (c_ops t') (c_ops s') |} :: rest'))
                  | [_] => RFail e (w_set_chain (m_w m') [])
                  | [] => RUnsup "context chain"
                  end
                | Panic s => RPanic s
                | OutOfFuel => RFuel
                | Unsupported s => RUnsup s
                end, csub sub)
             end
    end.

  (* VM.load_walk: several computed values may be evaluated one after the other: the sum *)
  Fixpoint load_walk_s (n : nat) (k : nat) (name : string) (isRaw : bool) (w : world) : RS value :=
    match n with
    | O => (ROk (load_global name) w, cz)
    | S n' =>
      match nth_error (w_chain w) k with
      | None => (ROk (load_global name) w, cz)
      | Some c =>
        let val := match mget name (get_map (c_attrs c) (w_heap w)) with Some v => v | None => VNull end in
        let w0 := sync_to k w in
        rbinds (rmapws (sync_back k)
                  (match val with
                   | VComp cid => if isRaw then (ROk val w0, cz) else computed_execute_s cid k w0
                   | _ => (ROk val w0, cz)
                   end))
               (fun v w' => match v with
                            | VNull => load_walk_s n' (S k) name isRaw w'
                            | _ => (ROk v w', cz)
                            end)
      end
    end.
  Definition load_name_s (name : string) (isRaw : bool) (w : world) : RS value :=
    load_walk_s (length (w_chain w)) 0 name isRaw w.

  Definition load_local_s (name : string) (w : world) : RS value :=
    let val := match mget name (get_map (c_attrs (w_self w)) (w_heap w)) with Some v => v | None => VNull end in
    match val with
    | VComp cid => computed_execute_s cid 0 w
    | _ => (ROk val w, cz)
    end.

  (* VM.attr_get starts a sub-VM only for `this.name` *)
  Definition attr_get_s (v : value) (name : string) (w : world) : RS (option value) :=
    match v with
    | VThis => rbinds (load_local_s name w) (fun x w' => (ROk (Some x) w', cz))
    | _ => (attr_get call E v name w, cz)
    end.

  (* VM.native_call starts a sub-VM only in load / loadRaw / Computed.compute *)
  Definition native_call_s (name : string) (self : vself) (args : list value) (w : world) : RS value :=
    let '(np, defaults) := native_sig name in
    let args' := (args ++ skipn (length args) defaults)%list in
    if negb (Nat.eqb (length args') np) then (RFail ECall w, cz)
    else
      let a0 := nth 0 args' VNull in
      if String.eqb name "load" then
        match a0 with VStr n => load_name_s n false w | _ => (RFail EType w, cz) end
      else if String.eqb name "loadRaw" then
        match a0 with VStr n => load_name_s n true w | _ => (RFail EType w, cz) end
      else if String.eqb name "Computed.compute" then
        match self with SComp cid => computed_execute_s cid 0 w | _ => (RPanic "nil Self", cz) end
      else (native_call call E name self args w, cz).

  (* VM.step starts sub-VMs only in invoke, attr.get, ld, ld.raw, ld.d: the dice rolled in the sub-VMs of ONE instruction *)
  Definition step_sub (ins : instr) (m : machine) : cnt :=
    let fr := m_fr m in
    let w := m_w m in
    match i_op ins, i_arg ins with
    | OpInvoke, OInt n =>
      let '(args, fr1) := pop_n n fr in
      let '(f, fr2) := pop fr1 in
      match f with
      | VFunc fid => snd (func_invoke_s fid args w)
      | VNative name self => snd (native_call_s name self args w)
      | _ => cz
      end
    | OpAttrGet, OStr name => let '(obj, fr1) := pop fr in snd (attr_get_s obj name w)
    | OpLd, OStr name => snd (load_name_s name false w)
    | OpLdRaw, OStr name => snd (load_name_s name true w)
    | OpLdD, OStr name => snd (load_name_s name false w)
    | _, _ => cz
    end.


  Lemma fst_rbinds : forall A B (r : RS A) (k : A -> world -> RS B),
    fst (rbinds r k) = rbind (fst r) (fun a w => fst (k a w)).
  Proof. intros A B [r d] k. unfold rbinds. cbn [fst]. destruct r; reflexivity. Qed.

  Lemma computed_execute_s_fst : forall cid k w, fst (computed_execute_s cid k w) = computed_execute call E cid k w.
  Proof.
    intros cid k w. unfold computed_execute_s, computed_execute.
    destruct (nth_error (w_chain w) k); [|reflexivity].
    destruct (cattrs_force cid (w_heap w)) as [mapid h1]. cbv zeta.
    destruct (limit_hit E _); [reflexivity|].
    destruct (f_lookup (e_ftab E) cid) as [d|]; [|reflexivity].
    destruct (f_code d); reflexivity.
  Qed.
  Lemma computed_execute_s_snd : forall cid k w,
    snd (computed_execute_s cid k w) = match ce_sub E cid k w with Some sub => csub sub | None => cz end.
  Proof.
    intros. unfold computed_execute_s, ce_sub. destruct (nth_error (w_chain w) k); [|reflexivity].
    destruct (cattrs_force cid (w_heap w)) as [mapid h1]. cbv zeta. destruct (limit_hit E _); [reflexivity|].
    destruct (f_lookup (e_ftab E) cid) as [d|]; [|reflexivity]. destruct (f_code d); reflexivity.
  Qed.

  Lemma func_invoke_s_fst : forall fid args w, fst (func_invoke_s fid args w) = func_invoke call E fid args w.
  Proof.
    intros fid args w. unfold func_invoke_s, func_invoke.
    destruct (f_lookup (e_ftab E) fid) as [d|]; [|reflexivity].
    destruct (w_chain w) as [|self ups]; [reflexivity|].
    destruct (negb _); [reflexivity|].
    destruct (alloc_map _ _) as [mapid h1]. cbv zeta.
    destruct (limit_hit E _); [reflexivity|].
    destruct (f_code d); reflexivity.
  Qed.

  Lemma func_invoke_s_snd : forall fid args w,
    snd (func_invoke_s fid args w) = match fi_sub E fid args w with Some sub => csub sub | None => cz end.
  Proof.
    intros. unfold func_invoke_s, fi_sub. destruct (f_lookup (e_ftab E) fid) as [d|]; [|reflexivity].
    destruct (w_chain w) as [|self ups]; [reflexivity|]. destruct (negb _); [reflexivity|].
    destruct (alloc_map _ _) as [mapid h1]. cbv zeta. destruct (limit_hit E _); [reflexivity|]. destruct (f_code d); reflexivity.
  Qed.

  Lemma load_walk_s_fst : forall n k name isRaw w, fst (load_walk_s n k name isRaw w) = load_walk call E n k name isRaw w.
  Proof.
    induction n as [|n IH]; intros k name isRaw w; cbn [load_walk_s load_walk]; [reflexivity|].
    destruct (nth_error (w_chain w) k) as [c|]; [|reflexivity]. cbv zeta.
    rewrite fst_rbinds. unfold rmapws. cbn [fst].
    match goal with |- rbind (rmapw _ ?a) _ = rbind (rmapw _ ?b) _ => assert (Hab : a = b) end.
    { destruct (match mget name _ with Some v => v | None => VNull end); try reflexivity.
      destruct isRaw; [reflexivity|apply computed_execute_s_fst]. }
    rewrite Hab. apply rbind_ext. intros v w'. destruct v; try reflexivity. apply IH.
  Qed.

  Lemma load_name_s_fst : forall name isRaw w, fst (load_name_s name isRaw w) = load_name call E name isRaw w.
  Proof. intros; apply load_walk_s_fst. Qed.

  Lemma load_local_s_fst : forall name w, fst (load_local_s name w) = load_local call E name w.
  Proof.
    intros name w. unfold load_local_s, load_local. cbv zeta.
    destruct (match mget name _ with Some v => v | None => VNull end); try reflexivity. apply computed_execute_s_fst.
  Qed.

  Lemma attr_get_s_fst : forall v name w, fst (attr_get_s v name w) = attr_get call E v name w.
  Proof.
    intros v name w. destruct v; try reflexivity. cbn [attr_get_s attr_get].
    rewrite fst_rbinds, load_local_s_fst. reflexivity.
  Qed.

  Lemma native_call_s_fst : forall name self args w, fst (native_call_s name self args w) = native_call call E name self args w.
  Proof.
    intros name self args w. unfold native_call_s.
    destruct (String.eqb name "load") eqn:H1.
    { apply String.eqb_eq in H1. subst name. cbn.
      destruct (negb _); [reflexivity|]. destruct (nth 0 _ VNull); try reflexivity. apply load_name_s_fst. }
    destruct (String.eqb name "loadRaw") eqn:H2.
    { apply String.eqb_eq in H2. subst name. cbn.
      destruct (negb _); [reflexivity|]. destruct (nth 0 _ VNull); try reflexivity. apply load_name_s_fst. }
    destruct (String.eqb name "Computed.compute") eqn:H3.
    { apply String.eqb_eq in H3. subst name. cbn.
      destruct (negb _); [reflexivity|]. destruct self; try reflexivity. apply computed_execute_s_fst. }
    unfold native_call. destruct (native_sig name) as [np defaults]. cbv zeta.
    destruct (negb _); reflexivity.
  Qed.
End OpsS.

(* the dice ONE instruction rolls itself: mirrors the dice branches of VM.step: the trip counts of the rolling loops that the instruction enters
   (roll_many (Z.to_nat times); roll .. 100 + coc_loop (Z.to_nat n); fate_loop 4; the pools of the STARTED rounds,
   CodeWf.wod_budget_cnt / dc_budget_cnt).  Tied to `step` by the per-opcode theorems below. *)
Definition step_own (rfuel : nat) (E : env) (ins : instr) (m : machine) : cnt :=
  let fr := m_fr m in
  let w := m_w m in
  let cfg := e_cfg E in
  match i_op ins with
  | OpDice =>
    match fr_dice fr with
    | [] => cz
    | d :: _ =>
      match fst (pop fr) with
      | VInt sides =>
        if sides <=? 0 then cz
        else if ((d_keep d =? 1) || (d_keep d =? 3)) && (d_low d <=? 0) then cz
        else if ((d_keep d =? 2) || (d_keep d =? 4)) && (d_high d <=? 0) then cz
        else if over_by E w (d_times d) then cz
        else if dice_cap <? d_times d then cz
        else Z.to_nat (d_times d)
      | _ => cz
      end
    end
  | OpDiceFate => if over_by E w 4 then cz else 4%nat
  | OpCocBonus | OpCocPenalty =>
    match fst (pop fr) with
    | VInt n => if n <? 0 then cz else if over_by E w n then cz else if dice_cap <? n then cz else S (Z.to_nat n)
    | _ => cz
    end
  | OpDiceWod =>
    match pop fr with
    | (VInt addLine, fr1) =>
      let x := fr_wod fr1 in
      if negb (wod_check addLine (w_pool x) (w_points x) (w_threshold x)) then cz
      else Z.to_nat (snd (wod_budget_cnt rfuel cfg addLine (w_points x) (w_threshold x) (w_isge x) (roll_mode cfg)
                                         (w_pool x) 0 (c_ops (w_self w)) (w_pcg w)))
    | _ => cz
    end
  | OpDiceDC =>
    match pop fr with
    | (VInt addLine, fr1) =>
      let x := fr_dc fr1 in
      if negb (dc_check addLine (c_pool x) (c_points x)) then cz
      else Z.to_nat (snd (dc_budget_cnt rfuel cfg addLine (c_points x) (roll_mode cfg) (c_pool x) 0 (c_ops (w_self w)) (w_pcg w)))
    | _ => cz
    end
  | _ => cz
  end.

Fixpoint exec_dice (fuel : nat) (E : env) (m : machine) : result * cnt :=
  match fuel with
  | O => (OutOfFuel, cz)
  | S f =>
    let fr := m_fr m in
    if zlen (fr_code fr) <=? fr_pc fr then
      (match fr_err fr with Some e => Fail e m | None => Fin m end, cz)
    else
      let '(m1, over) := count_op E m in
      if over then (Fail EBudget m1, cz)
      else match fr_err fr with Some e => (Fail e m1, cz) | None =>
      if fr_top fr =? stack_size then (Fail EStack m1, cz)
      else if fr_pc fr <? 0 then (Panic "code index negative", cz)
      else match nth_error (fr_code fr) (Z.to_nat (fr_pc fr)) with
           | None => (Panic "code index out of range", cz)
           | Some ins =>
             let next (m2 : machine) := {| m_fr := fr_set_pc (m_fr m2) (fr_pc (m_fr m2) + 1); m_w := m_w m2 |} in
             (* own dice + the dice of the sub-VMs this instruction starts (they run `exec f E`) *)
             let d := cadd (step_own f E ins m1)
                           (step_sub (exec f E) (fun sub => snd (exec_dice f E sub)) E ins m1) in
             match step (exec f E) f E ins m1 with
             | SNext m2 => let '(r, n) := exec_dice f E (next m2) in (r, cadd d n)
             | SStop m2 => (Fin m2, d)
             | SFail e m2 => (Fail e m2, d)
             | SPanic s => (Panic s, d)
             | SFuel => (OutOfFuel, d)
             | SUnsup s => (Unsupported s, d)
             end
           end
      end
  end.

Lemma exec_dice_fst : forall fuel E m, fst (exec_dice fuel E m) = exec fuel E m.
Proof.
  exact (exec_gen_fst cadd (fun call cs f E ins m => cadd (step_own f E ins m) (step_sub call cs E ins m))).
Qed.

Lemma exec_dice_S : forall f E m, exec_dice (S f) E m =
  match exec_head E m with
  | inl r => (r, cz)
  | inr ins =>
    exec_after cadd (cadd (step_own f E ins (counted E m))
                          (step_sub (exec f E) (fun sub => snd (exec_dice f E sub)) E ins (counted E m)))
               (exec_dice f E) (step (exec f E) f E ins (counted E m))
  end.
Proof.
  exact (exec_gen_S cadd (fun call cs f E ins m => cadd (step_own f E ins m) (step_sub call cs E ins m))).
Qed.

Lemma ops_of_set_pcg : forall w s, ops_of (w_set_pcg w s) = ops_of w.
Proof. reflexivity. Qed.

Lemma charged_ops_min : forall E w n, w_chain w <> [] -> 0 <= ops_of w <= MaxInt64 -> 0 <= n ->
  ops_of (charged E w n) = Z.min (ops_of w + n) MaxInt64.
Proof.
  intros E w n Hch Hops Hn. unfold charged. rewrite ops_of_set_self by exact Hch. apply ops_add_value; assumption.
Qed.

Lemma charged_ops_in : forall E L w n, cfg_op_limit (e_cfg E) = L -> 0 < L < MaxInt64 ->
  w_chain w <> [] -> 0 <= ops_of w <= MaxInt64 -> 0 <= n -> over_by E w n = false ->
  ops_of (charged E w n) = ops_of w + n /\ ops_of w + n <= L.
Proof.
  intros E L w n HL HLr Hch Hops Hn Hov. unfold charged. rewrite ops_of_set_self by exact Hch.
  exact (charge_in E L w n HL HLr Hops Hn Hov).
Qed.
(* XdY: `times` is charged first; over budget -> EBudget and no die; otherwise exactly `times` dice *)
Theorem C07_dice_charge : forall call rf E o m d rest,
  fr_dice (m_fr m) = d :: rest -> w_chain (m_w m) <> [] -> 0 <= ops_of (m_w m) <= MaxInt64 -> 0 <= d_times d ->
  match step call rf E (I OpDice o) m with
  | SNext m' =>
    ops_of (m_w m') = Z.min (ops_of (m_w m) + d_times d) MaxInt64 /\
    step_own rf E (I OpDice o) m = Z.to_nat (d_times d) /\
    exists sides nums, fst (pop (m_fr m)) = VInt sides /\
      roll_many pcg_next roll_fuel (Z.to_nat (d_times d)) sides (roll_mode (e_cfg E)) (d_min d) (d_max d) (w_pcg (m_w m))
      = Roll.Done (nums, w_pcg (m_w m'))
  | SFail e m' =>
    step_own rf E (I OpDice o) m = cz /\ w_pcg (m_w m') = w_pcg (m_w m) /\
    (e = EBudget -> over_by E (m_w m) (d_times d) = true /\
                    ops_of (m_w m') = Z.min (ops_of (m_w m) + d_times d) MaxInt64) /\
    (e <> EBudget -> m_w m' = m_w m)
  | SStop _ => False
  | _ => True
  end.
Proof.
  intros call rf E o m d rest Hd Hch Hops Ht. unfold step, step_own; cbn [i_op i_arg]. rewrite Hd. unfold with_pop.
  destruct (pop (m_fr m)) as [v fr1]. cbn [fst].
  destruct v; try (cbn [m_w mk]; repeat split; try reflexivity; intros; congruence).
  repeat match goal with |- context [if ?b then SFail EDice _ else _] =>
           destruct b; [cbn [m_w mk]; repeat split; try reflexivity; intros; congruence|] end.
  rewrite add_ops_spec. destruct (over_by E (m_w m) (d_times d)) eqn:Ho.
  - cbn [m_w mk]. split; [reflexivity|]. split; [apply charged_pcg|]. split; [|congruence].
    intros _. split; [reflexivity|]. apply charged_ops_min; assumption.
  - destruct (dice_cap <? d_times d); [exact Logic.I|].
    unfold roll_common.
    destruct (roll_many _ _ _ _ _ _ _ _) as [[nums s]|] eqn:Hr; [|exact Logic.I].
    unfold dice_result, do_push. destruct (push _ _); [|exact Logic.I]. cbn [m_w mk].
    rewrite ops_of_set_pcg. split; [apply charged_ops_min; assumption|]. split; [reflexivity|].
    exists z, nums. split; [reflexivity|]. rewrite charged_pcg in Hr. exact Hr.
Qed.

(* CoC bonus / penalty n: n is charged first; then 1 + n dice (the d100 + n tens dice) *)
Theorem C07_coc_charge : forall call rf E op o m n l,
  op = OpCocBonus \/ op = OpCocPenalty -> fr_live (m_fr m) = VInt n :: l ->
  w_chain (m_w m) <> [] -> 0 <= ops_of (m_w m) <= MaxInt64 ->
  match step call rf E (I op o) m with
  | SNext m' =>
    0 <= n /\ ops_of (m_w m') = Z.min (ops_of (m_w m) + n) MaxInt64 /\
    step_own rf E (I op o) m = S (Z.to_nat n) /\
    exists res s1 acc, roll pcg_next roll_fuel 100 (roll_mode (e_cfg E)) (w_pcg (m_w m)) = Roll.Done (res, s1) /\
      coc_loop pcg_next roll_fuel (Z.to_nat n) (match op with OpCocBonus => true | _ => false end) (roll_mode (e_cfg E))
               ([], Z.quot res 10, Z.quot res 10, false) s1 = Roll.Done (acc, w_pcg (m_w m'))
  | SFail e m' =>
    step_own rf E (I op o) m = cz /\ w_pcg (m_w m') = w_pcg (m_w m) /\
    (e = EBudget -> over_by E (m_w m) n = true /\ ops_of (m_w m') = Z.min (ops_of (m_w m) + n) MaxInt64)
  | SStop _ => False
  | _ => True
  end.
Proof.
  intros call rf E op o m n l Hop Hl Hch Hops. unfold step, step_own.
  destruct Hop as [-> | ->]; cbn [i_op i_arg]; unfold with_pop, with_int, pop; rewrite Hl; cbv beta iota zeta; cbn [fst];
    (destruct (n <? 0) eqn:Hn; [cbn [m_w mk]; repeat split; try reflexivity; intros; congruence|]); apply Z.ltb_ge in Hn;
    rewrite add_ops_spec; (destruct (over_by E (m_w m) n) eqn:Ho;
      [cbn [m_w mk]; split; [reflexivity|]; split; [apply charged_pcg|]; intros _; split; [reflexivity|apply charged_ops_min; assumption]|]);
    (destruct (dice_cap <? n); [exact Logic.I|]);
    unfold roll_coc; rewrite charged_pcg;
    (destruct (roll pcg_next roll_fuel 100 _ _) as [[res s1]|] eqn:Hr; [|exact Logic.I]);
    (destruct (coc_loop _ _ _ _ _ _ _) as [[[[[nums dmin] dmax] ten] s2]|] eqn:Hc; [|exact Logic.I]);
    unfold dice_result, do_push; cbv beta iota zeta; (destruct (push _ _); [|exact Logic.I]); cbn [m_w mk];
    rewrite ops_of_set_pcg; (split; [exact Hn|]); (split; [apply charged_ops_min; assumption|]); (split; [reflexivity|]);
    exists res, s1, (nums, dmin, dmax, ten); (split; [reflexivity|exact Hc]).
Qed.

(* Fate: 4 is charged first; over budget -> EBudget and no die; otherwise exactly four dice *)
Theorem C07_fate_charge : forall call rf E o m,
  w_chain (m_w m) <> [] -> 0 <= ops_of (m_w m) <= MaxInt64 ->
  match step call rf E (I OpDiceFate o) m with
  | SNext m' =>
    ops_of (m_w m') = Z.min (ops_of (m_w m) + 4) MaxInt64 /\
    step_own rf E (I OpDiceFate o) m = 4%nat /\
    exists sum txt, fate_loop pcg_next roll_fuel 4 (roll_mode (e_cfg E)) 0 "" (w_pcg (m_w m)) = Roll.Done ((sum, txt), w_pcg (m_w m'))
  | SFail e m' =>
    e = EBudget /\ over_by E (m_w m) 4 = true /\
    step_own rf E (I OpDiceFate o) m = cz /\ w_pcg (m_w m') = w_pcg (m_w m) /\
    ops_of (m_w m') = Z.min (ops_of (m_w m) + 4) MaxInt64
  | SStop _ => False
  | _ => True
  end.
Proof.
  intros call rf E o m Hch Hops. assert (H4 : 0 <= 4) by lia.
  unfold step, step_own; cbn [i_op i_arg]. rewrite add_ops_spec.
  destruct (over_by E (m_w m) 4) eqn:Ho.
  - cbn [m_w mk]. split; [reflexivity|]. split; [reflexivity|]. split; [reflexivity|]. split; [apply charged_pcg|].
    apply charged_ops_min; assumption.
  - unfold roll_fate. rewrite charged_pcg.
    destruct (fate_loop _ _ _ _ _ _ _) as [[[sum txt] s]|] eqn:Hf; [|exact Logic.I].
    unfold dice_result, do_push. destruct (push _ _); [|exact Logic.I]. cbn [m_w mk].
    rewrite ops_of_set_pcg. split; [apply charged_ops_min; assumption|]. split; [reflexivity|]. exists sum, txt. reflexivity.
Qed.

Lemma rounds_outcome : forall L w fr1 r k, w_chain w <> [] -> rounds_charged L (ops_of w) r k ->
  match rounds_step fr1 w r with
  | SNext m' => ops_of (m_w m') = ops_of w + k /\ ops_of (m_w m') <= L
  | SFail e m' => e = EBudget /\ L < ops_of (m_w m')
  | SStop _ => False
  | _ => True
  end.
Proof.
  intros L w fr1 r k Hch (K1 & K2 & K3). destruct r as [total ops' s|ops' s|]; cbn [rounds_step]; [| |exact Logic.I].
  - unfold dice_result, do_push. destruct (push _ _); [|exact Logic.I]. cbn [m_w mk].
    rewrite ops_of_set_pcg, ops_of_set_self by exact Hch. lia.
  - cbn [m_w mk]. rewrite ops_of_set_pcg, ops_of_set_self by exact Hch. split; [reflexivity|exact K3].
Qed.

(* WoD / Double Cross: the pool of every round is charged at the start of the round; the dice counted are the pools
   of the STARTED rounds (wod_budget_cnt / dc_budget_cnt); the round that breaks the limit is not rolled *)
Theorem C07_wod_dc_charge : forall call rf E L o m addLine l,
  cfg_op_limit (e_cfg E) = L -> 0 < L < MaxInt64 ->
  fr_live (m_fr m) = VInt addLine :: l -> w_chain (m_w m) <> [] -> 0 <= ops_of (m_w m) <= MaxInt64 ->
  let fr1 := snd (pop (m_fr m)) in
  (let x := fr_wod fr1 in
   wod_check addLine (w_pool x) (w_points x) (w_threshold x) = true ->
   exists k, step_own rf E (I OpDiceWod o) m = Z.to_nat k /\ 0 <= k <= Z.max 0 (L - ops_of (m_w m)) /\
     match step call rf E (I OpDiceWod o) m with
     | SNext m' => ops_of (m_w m') = ops_of (m_w m) + k /\ ops_of (m_w m') <= L
     | SFail e m' => e = EBudget /\ L < ops_of (m_w m')
     | SStop _ => False
     | _ => True
     end) /\
  (let x := fr_dc fr1 in
   dc_check addLine (c_pool x) (c_points x) = true ->
   exists k, step_own rf E (I OpDiceDC o) m = Z.to_nat k /\ 0 <= k <= Z.max 0 (L - ops_of (m_w m)) /\
     match step call rf E (I OpDiceDC o) m with
     | SNext m' => ops_of (m_w m') = ops_of (m_w m) + k /\ ops_of (m_w m') <= L
     | SFail e m' => e = EBudget /\ L < ops_of (m_w m')
     | SStop _ => False
     | _ => True
     end).
Proof.
  intros call rf E L o m addLine l HL HLr Hl Hch Hops.
  destruct (C07_wod_dc_rounds_charged_step call rf E o m addLine l Hl) as [HW HD]. cbv zeta in *.
  split; intros Hc.
  - destruct (HW Hc) as [-> Hpool]. clear HW HD. unfold step_own; cbn [i_op]. destruct (pop (m_fr m)) as [v fr1] eqn:Hp.
    unfold pop in Hp. rewrite Hl in Hp. injection Hp as <- <-. cbn [snd] in *. rewrite Hc. cbn [negb].
    change (c_ops (w_self (m_w m))) with (ops_of (m_w m)).
    match goal with |- context [wod_budget_cnt ?a ?b ?c ?d ?e ?f ?g ?h ?i ?j ?k] =>
      destruct (C07_wod_rounds_charged b L c d e f g HL HLr a h i j k Hops Hpool) as [Hf Hr];
      exists (snd (wod_budget_cnt a b c d e f g h i j k)) end.
    rewrite <- Hf. split; [reflexivity|]. split; [destruct Hr as (K1 & K2 & _); lia|exact (rounds_outcome _ _ _ _ _ Hch Hr)].
  - destruct (HD Hc) as [-> Hpool]. clear HW HD. unfold step_own; cbn [i_op]. destruct (pop (m_fr m)) as [v fr1] eqn:Hp.
    unfold pop in Hp. rewrite Hl in Hp. injection Hp as <- <-. cbn [snd] in *. rewrite Hc. cbn [negb].
    change (c_ops (w_self (m_w m))) with (ops_of (m_w m)).
    match goal with |- context [dc_budget_cnt ?a ?b ?c ?d ?e ?f ?g ?h ?i] =>
      destruct (C07_dc_rounds_charged b L c d e HL HLr a f g h i Hops Hpool) as [Hf Hr];
      exists (snd (dc_budget_cnt a b c d e f g h i)) end.
    rewrite <- Hf. split; [reflexivity|]. split; [destruct Hr as (K1 & K2 & _); lia|exact (rounds_outcome _ _ _ _ _ Hch Hr)].
Qed.

(* a round whose charge raises the "over" flag is not rolled: the rounds stop on the generator state that round started on *)
Lemma C07_round_over_not_rolled : forall n c addLine points threshold isGE mode pool acc ops s,
  snd (ops_add c ops pool) = true ->
  (wod_budget (S n) c addLine points threshold isGE mode pool acc ops s = ROver (fst (ops_add c ops pool)) s) /\
  (dc_budget (S n) c addLine points mode pool acc ops s = ROver (fst (ops_add c ops pool)) s) /\
  (snd (wod_budget_cnt (S n) c addLine points threshold isGE mode pool acc ops s) = 0) /\
  (snd (dc_budget_cnt (S n) c addLine points mode pool acc ops s) = 0).
Proof.
  intros n c addLine points threshold isGE mode pool acc ops s H.
  cbn [wod_budget dc_budget wod_budget_cnt dc_budget_cnt]. destruct (ops_add c ops pool) as [ops' over]. cbn [fst snd] in *. subst over.
  repeat split.
Qed.

Definition OKW (L : Z) (w : world) : Prop := w_chain w <> [] /\ chain_in_budget L w.

Lemma OKW_ops : forall L w, OKW L w -> 0 <= ops_of w <= L.
Proof.
  unfold OKW, chain_in_budget, ops_of, w_self. intros L w [Hne H]. destruct (w_chain w) as [|x r]; [congruence|].
  exact (Forall_inv H).
Qed.

Lemma returned_ops_at : forall k w m' w' t, returned k w m' w' -> nth_error (w_chain w) k = Some t ->
  ops_at k w' = ops_of (m_w m').
Proof.
  intros k w m' w' t (s' & t' & rest' & Hm & H) Hn. unfold ops_at, ops_of, w_self. rewrite H, Hm.
  change (firstn k (w_chain w) ++ ?x :: rest')%list with (chain_put (firstn k (w_chain w)) x rest').
  rewrite nth_error_chain_put by (apply nth_error_Some; congruence). reflexivity.
Qed.

Section Quant.
  Variable call : machine -> result.
  Variable csub : machine -> cnt.
  Variable rfuel : nat.
  Variable E : env.
  Variable L : Z.
  Hypothesis HL : cfg_op_limit (e_cfg E) = L.
  Hypothesis HLr : 0 < L <= MaxInt64 - 100.
  Hypothesis Hcall : forall m m', run_pre m -> call m = Fin m' -> ops_of (m_w m) <= ops_of (m_w m') <= MaxInt64.
  Hypothesis Hfin : forall sub, w_chain (m_w sub) <> [] -> dice_ok (m_fr sub) -> chain_in_budget L (m_w sub) ->
    forall m', call sub = Fin m' -> chain_in_budget L (m_w m').
  (* what is known of the dice of a sub-VM: paid for by the counter of the sub-VM's context *)
  Hypothesis Hsubq : forall sub, w_chain (m_w sub) <> [] -> dice_ok (m_fr sub) -> chain_in_budget L (m_w sub) ->
    acct (csub sub) <= L - ops_of (m_w sub) /\
    (forall m', call sub = Fin m' -> acct (csub sub) <= ops_of (m_w m') - ops_of (m_w sub)).

  Lemma HLr' : 0 < L < MaxInt64. Proof. unfold MaxInt64 in *. lia. Qed.

  Lemma WB_inv : forall c, 0 <= c -> chain_inv call E L (WB L c).
  Proof. intros c Hc. exact (in_budget_inv call E L c HL HLr Hc Hcall Hfin). Qed.

  Lemma OKW_WB : forall w, OKW L w -> WB L (ops_of w) w.
  Proof. intros w H. pose proof (OKW_ops _ _ H). destruct H as [Hne H]. split; [split; [exact Hne|unfold MaxInt64 in *; lia]|exact H]. Qed.
  Lemma WB_OKW : forall c w, WB L c w -> OKW L w.
  Proof. intros c w [[Hne _] H]. split; assumption. Qed.

  Lemma ln_pwl : forall c, 0 <= c -> forall name isRaw w, W c w -> PWL L w -> rct (PWL L) (load_name call E name isRaw w).
  Proof using HL HLr Hcall Hfin.
    intros c Hc name isRaw w Hw Hp.
    pose proof (load_name_chain call E L _ (WB_inv c Hc) name isRaw w (conj Hw (W_PWL_chain L c w Hc Hw Hp)) (proj1 Hp)) as H.
    destruct (load_name call E name isRaw w); try exact Logic.I. apply chain_PWL; [lia|exact (proj2 H)].
  Qed.

  (* PQ w rs, the quantitative invariant of one operation started on w: the result world is again a world a run may be
     started on, the running context's counter did not go down, and the dice counted were paid for by its increase *)
  Definition rokw (w : world) {A} (r : R A) : Prop :=
    match r with ROk _ w' => OKW L w' /\ ops_of w <= ops_of w' | _ => True end.
  Definition PQ {A} (w : world) (rs : RS A) : Prop :=
    rokw w (fst rs) /\
    match fst rs with
    | ROk _ w' => acct (snd rs) <= ops_of w' - ops_of w
    | _ => acct (snd rs) <= L - ops_of w
    end.

  Lemma rokw_of : forall A w (r : R A), rchain (WB L (ops_of w)) r -> rokw w r.
  Proof. intros A w r H. destruct r; try exact Logic.I. split; [exact (WB_OKW _ _ H)|]. destruct H as [[_ H] _]. lia. Qed.

  Lemma PQ_plain : forall A w (r : R A), OKW L w -> rchain (WB L (ops_of w)) r -> PQ w (r, cz).
  Proof.
    intros A w r Hw Hp. pose proof (rokw_of _ _ _ Hp) as Hr. pose proof (OKW_ops _ _ Hw).
    split; [exact Hr|]. cbn [fst snd]. rewrite acct_cz.
    destruct r; try lia. cbn in Hr. lia.
  Qed.
  Lemma PQ_ret : forall A w (a : A), OKW L w -> PQ w (ROk a w, cz).
  Proof.
    intros A w a Hw. split; [split; [exact Hw|lia]|]. cbn [fst snd]. rewrite acct_cz. lia.
  Qed.
  Lemma PQ_fail : forall A w (r : R A), OKW L w -> (match r with ROk _ _ => False | _ => True end) -> PQ w (r, cz).
  Proof.
    intros A w r Hw Hr. pose proof (OKW_ops _ _ Hw). destruct r; try contradiction;
      (split; [exact Logic.I|]; cbn [fst snd]; rewrite acct_cz; lia).
  Qed.

  Lemma PQ_rbinds : forall A B w (r : RS A) (k : A -> world -> RS B),
    PQ w r -> (forall a w', OKW L w' -> PQ w' (k a w')) -> PQ w (rbinds r k).
  Proof.
    intros A B w [r d] k (P1 & P3) Hk. unfold rbinds. cbn [fst snd] in *.
    destruct r as [a w'| | | |]; try (split; [exact Logic.I|exact P3]).
    cbn in P1. destruct P1 as [O1 O2]. destruct (Hk a w' O1) as (K1 & K3).
    split; cbn [fst snd]; rewrite ?acct_cadd.
    - destruct (fst (k a w')); try exact Logic.I. cbn in *. split; [exact (proj1 K1)|lia].
    - destruct (fst (k a w')); lia.
  Qed.

  Lemma sub_q : forall c k w sub, 0 <= c -> WB L c w -> ops_of w <= ops_at k w -> started E k w sub ->
    acct (csub sub) <= L - c /\
    (forall m' w', call sub = Fin m' -> returned k w m' w' -> acct (csub sub) <= ops_at k w' - c).
  Proof.
    intros c k w sub Hc Hw Hge Hs.
    destruct (started_in_budget E L c k w sub HL HLr Hc Hw Hge Hs) as (S1 & S2 & S3 & S4 & S5).
    destruct (Hsubq sub S1 S2 S3) as [Q1 Q2]. destruct Hw as [[_ Hw] _]. split; [lia|].
    intros m' w' Hm Hr. specialize (Q2 m' Hm). destruct Hs as (t & _ & Hn & _).
    rewrite (returned_ops_at _ _ _ _ _ Hr Hn). lia.
  Qed.

  Lemma ce_q : forall c, 0 <= c -> forall cid k w, WB L c w -> ops_of w <= ops_at k w ->
    match fst (computed_execute_s call csub E cid k w) with
    | ROk _ w' => acct (snd (computed_execute_s call csub E cid k w)) <= ops_at k w' - c
    | _ => acct (snd (computed_execute_s call csub E cid k w)) <= L - c
    end.
  Proof.
    intros c Hc cid k w Hw Hge. rewrite computed_execute_s_fst, computed_execute_s_snd.
    assert (HcL : c <= L) by (pose proof (OKW_ops _ _ (WB_OKW _ _ Hw)); destruct Hw as [[_ Hw] _]; lia).
    destruct (computed_execute call E cid k w) as [v w'| | | |] eqn:He.
    1: apply computed_execute_ROk in He as (sub & m' & Hs & Hm & Hr); rewrite Hs.
    1: exact (proj2 (sub_q c k w sub Hc Hw Hge (ce_sub_started _ _ _ _ _ Hs)) m' w' Hm Hr).
    all: destruct (ce_sub E cid k w) as [sub|] eqn:Hs; [exact (proj1 (sub_q c k w sub Hc Hw Hge (ce_sub_started _ _ _ _ _ Hs)))|rewrite acct_cz; lia].
  Qed.

  Lemma fi_q : forall fid args w, OKW L w -> PQ w (func_invoke_s call csub E fid args w).
  Proof.
    intros fid args w Hok. pose proof (OKW_WB _ Hok) as Hw. pose proof (OKW_ops _ _ Hok) as Hops.
    assert (Hge : ops_of w <= ops_at 0 w) by (rewrite ops_at_0; lia).
    pose proof (func_invoke_chain call E L _ (WB_inv _ (proj1 Hops)) fid args w Hw (proj2 Hops)) as Hr. apply rokw_of in Hr.
    split; rewrite func_invoke_s_fst; [exact Hr|]. rewrite func_invoke_s_snd.
    destruct (func_invoke call E fid args w) as [v w'| | | |] eqn:He.
    1: apply func_invoke_ROk in He as (sub & m' & Hs & Hm & Hr'); rewrite Hs.
    1: rewrite <- (ops_at_0 w'); exact (proj2 (sub_q _ 0%nat w sub (proj1 Hops) Hw Hge (fi_sub_started _ _ _ _ _ Hs)) m' w' Hm Hr').
    all: destruct (fi_sub E fid args w) as [sub|] eqn:Hs;
      [exact (proj1 (sub_q _ 0%nat w sub (proj1 Hops) Hw Hge (fi_sub_started _ _ _ _ _ Hs)))|rewrite acct_cz; lia].
  Qed.

  Lemma sync_back_at : forall k w, w_chain w <> [] -> chain_in_budget L w -> ops_at k w <= ops_of (sync_back k w).
  Proof.
    intros k w Hne Hp. destruct k as [|k]; [cbn [sync_back]; rewrite ops_at_0; lia|].
    unfold sync_back. cbv zeta.
    assert (Hx : 0 <= ops_at (S k) w <= L) by (apply (ops_at_Forall (fun z => 0 <= z <= L)); [lia|exact Hp]).
    rewrite wrap64_id by (unfold in_i64, two63, MaxInt64 in *; lia).
    destruct (ops_at 0 w <? ops_at (S k) w) eqn:Hlt.
    - destruct (w_chain w) as [|x r] eqn:Hcw; [congruence|].
      rewrite <- ops_at_0, (ops_at_set 0 _ w x) by (rewrite Hcw; reflexivity). lia.
    - apply Z.ltb_ge in Hlt. rewrite ops_at_0 in Hlt. exact Hlt.
  Qed.

  (* the first half of one step of load_walk: the value found in context k, computed by that context if need be *)
  Lemma lw_first : forall k w c (x : RS value), OKW L w -> nth_error (w_chain w) k = Some c ->
    (exists v, x = (ROk v (sync_to k w), cz)) \/ (exists cid, x = computed_execute_s call csub E cid k (sync_to k w)) ->
    PQ w (rmapws (sync_back k) x).
  Proof.
    intros k w c x Hok Hn Hx. pose proof (OKW_ops _ _ Hok) as Hops. pose proof (WB_inv _ (proj1 Hops)) as HPW.
    pose proof (inv_to _ _ _ _ HPW k w (OKW_WB _ Hok)) as Hw0.
    assert (Hback : forall w', WB L (ops_of w) w' ->
              OKW L (sync_back k w') /\ ops_of w <= ops_of (sync_back k w') /\ ops_at k w' <= ops_of (sync_back k w')).
    { intros w' Hw'. pose proof (inv_back _ _ _ _ HPW k w' Hw') as Hb. split; [exact (WB_OKW _ _ Hb)|].
      split; [destruct Hb as [[_ Hb] _]; lia|]. destruct Hw' as [[Hne _] Hp]. exact (sync_back_at k w' Hne Hp). }
    destruct Hx as [[v ->]|[cid ->]].
    - unfold rmapws. cbn [fst snd rmapw]. destruct (Hback _ Hw0) as (B1 & B2 & _).
      split; [split; assumption|]. cbn [fst snd]. rewrite acct_cz. lia.
    - pose proof (ce_q _ (proj1 Hops) cid k _ Hw0 (sync_to_ge _ _ _ Hn)) as Q.
      assert (Hpw : rchain (WB L (ops_of w)) (computed_execute call E cid k (sync_to k w))).
      { apply (computed_execute_chain call E L _ HPW); [exact Hw0|exact (sync_to_ge _ _ _ Hn)|].
        intros ->. cbn [sync_to]. exact (proj2 Hops). }
      unfold rmapws, PQ. cbn [fst snd]. rewrite computed_execute_s_fst in *.
      destruct (computed_execute call E cid k (sync_to k w)) as [a w'| | | |]; cbn [rmapw rokw];
        try (split; [exact Logic.I|lia]).
      destruct (Hback _ Hpw) as (B1 & B2 & B3). split; [split; assumption|lia].
  Qed.

  Lemma lw_q : forall n k name isRaw w, OKW L w -> PQ w (load_walk_s call csub E n k name isRaw w).
  Proof.
    induction n as [|n IH]; intros k name isRaw w Hok; cbn [load_walk_s]; [apply PQ_ret; exact Hok|].
    destruct (nth_error (w_chain w) k) as [c|] eqn:Hn; [|apply PQ_ret; exact Hok]. cbv zeta.
    apply PQ_rbinds.
    - apply (lw_first k w c); [exact Hok|exact Hn|].
      destruct (match mget name _ with Some v => v | None => VNull end); try (left; eexists; reflexivity).
      destruct isRaw; [left; eexists; reflexivity|right; eexists; reflexivity].
    - intros v w' Hok'. destruct v; try (apply PQ_ret; exact Hok'). apply IH. exact Hok'.
  Qed.

  Lemma ln_q : forall name isRaw w, OKW L w -> PQ w (load_name_s call csub E name isRaw w).
  Proof. intros; apply lw_q; assumption. Qed.

  Lemma ce0_q : forall cid w, OKW L w -> PQ w (computed_execute_s call csub E cid 0 w).
  Proof.
    intros cid w Hok. pose proof (OKW_WB _ Hok) as Hw. pose proof (OKW_ops _ _ Hok) as Hops.
    assert (Hge : ops_of w <= ops_at 0 w) by (rewrite ops_at_0; lia).
    pose proof (ce_q _ (proj1 Hops) cid 0%nat w Hw Hge) as Q.
    pose proof (computed_execute_chain call E L _ (WB_inv _ (proj1 Hops)) cid 0%nat w Hw Hge (fun _ => proj2 Hops)) as Hr.
    apply rokw_of in Hr. unfold PQ. rewrite computed_execute_s_fst in *. split; [exact Hr|].
    destruct (computed_execute call E cid 0 w) as [a w'| | | |]; try exact Q. rewrite ops_at_0 in Q. exact Q.
  Qed.

  Lemma ll_q : forall name w, OKW L w -> PQ w (load_local_s call csub E name w).
  Proof.
    intros name w Hok. unfold load_local_s. cbv zeta.
    destruct (match mget name _ with Some v => v | None => VNull end); try (apply PQ_ret; exact Hok). apply ce0_q; exact Hok.
  Qed.

  Lemma ag_q : forall v name w, OKW L w -> PQ w (attr_get_s call csub E v name w).
  Proof.
    intros v name w Hok. pose proof (OKW_ops _ _ Hok) as Hops.
    assert (Hplain : PQ w (attr_get call E v name w, cz)).
    { apply PQ_plain; [exact Hok|]. apply (attr_get_chain call E L _ (WB_inv _ (proj1 Hops))); [exact (OKW_WB _ Hok)|lia]. }
    destruct v; try exact Hplain. cbn [attr_get_s].
    apply PQ_rbinds; [apply ll_q; exact Hok|]. intros x w' Hok'. apply PQ_ret. exact Hok'.
  Qed.

  Lemma nc_q : forall name self args w, OKW L w -> PQ w (native_call_s call csub E name self args w).
  Proof.
    intros name self args w Hok. pose proof (OKW_ops _ _ Hok) as Hops.
    unfold native_call_s. destruct (native_sig name) as [np defaults]. cbv zeta.
    destruct (negb _); [apply PQ_fail; [exact Hok|exact Logic.I]|].
    destruct (String.eqb name "load").
    { destruct (nth 0 _ VNull); try (apply PQ_fail; [exact Hok|exact Logic.I]). apply ln_q; exact Hok. }
    destruct (String.eqb name "loadRaw").
    { destruct (nth 0 _ VNull); try (apply PQ_fail; [exact Hok|exact Logic.I]). apply ln_q; exact Hok. }
    destruct (String.eqb name "Computed.compute").
    { destruct self; try (apply PQ_fail; [exact Hok|exact Logic.I]). apply ce0_q; exact Hok. }
    apply PQ_plain; [exact Hok|]. apply (native_call_chain call E L _ (WB_inv _ (proj1 Hops))); [exact (OKW_WB _ Hok)|lia].
  Qed.

  (* SQ c d r, for one instruction started at counter c: the dice d (those it rolls itself + those of the sub-VMs it
     starts) are paid for by the increase of the running context's counter, + the 1 the loop head has charged for the
     instruction itself *)
  Definition SQ (c : Z) (d : cnt) (r : sresult) : Prop :=
    match r with
    | SNext m2 | SStop m2 => acct d <= ops_of (m_w m2) - c + 1
    | _ => acct d <= L - c + 1
    end.

  Definition sworld (r : sresult) (w1 : world) : Prop :=
    match r with SNext m | SStop m | SFail _ m => m_w m = w1 | _ => True end.

  Lemma sworld_do_push : forall v fr w, sworld (do_push v fr w) w.
  Proof. intros; unfold do_push. destruct (push v fr); cbn; [reflexivity|exact Logic.I]. Qed.

  Lemma SQ_cz_r : forall c x r, SQ c x r -> SQ c (cadd x cz) r.
  Proof. intros c x r H. unfold cadd, cz. rewrite Nat.add_0_r. exact H. Qed.

  Lemma SQ_same : forall r w, OKW L w -> sworld r w -> SQ (ops_of w) cz r.
  Proof.
    intros r w Hok Hs. pose proof (OKW_ops _ _ Hok). unfold SQ. rewrite acct_cz.
    destruct r; cbn in Hs; subst; lia.
  Qed.

  Lemma SQ_stop : forall w, OKW L w -> forall r, match r with SNext _ | SStop _ => False | _ => True end -> SQ (ops_of w) cz r.
  Proof. intros w Hok r Hr. pose proof (OKW_ops _ _ Hok). unfold SQ. rewrite acct_cz. destruct r; try contradiction; lia. Qed.

  Lemma SQ_lift : forall A (rs : RS A) fr k w, OKW L w -> PQ w rs -> (forall a w1, sworld (k a w1) w1) ->
    SQ (ops_of w) (snd rs) (lift (fst rs) fr k).
  Proof.
    intros A [r d] fr k w Hok (P1 & P3) Hk. cbn [fst snd] in *. pose proof (OKW_ops _ _ Hok).
    unfold SQ. destruct r as [a w1|e w1| | |]; cbn [lift]; try lia.
    cbn in P1. destruct P1 as [O1 O2]. pose proof (OKW_ops _ _ O1). unfold check_err.
    destruct (fr_err fr); [lia|]. specialize (Hk a w1). destruct (k a w1); cbn in Hk; subst; lia.
  Qed.

  Lemma step_q_invoke : forall o m, OKW L (m_w m) ->
    SQ (ops_of (m_w m)) (cadd (step_own rfuel E (I OpInvoke o) m) (step_sub call csub E (I OpInvoke o) m))
       (step call rfuel E (I OpInvoke o) m).
  Proof.
    intros o m Hok. unfold step, step_own, step_sub; cbn [i_op i_arg]. change (cadd cz ?x) with x.
    unfold arg_int, with_pop_n, with_pop.
    destruct o; try (apply SQ_same; [exact Hok|exact Logic.I]).
    destruct (pop_n z (m_fr m)) as [args fr1]. destruct (pop fr1) as [f fr2].
    destruct f; try (apply SQ_same; [exact Hok|reflexivity]).
    - rewrite <- (func_invoke_s_fst call csub E). apply SQ_lift; [exact Hok|apply fi_q; exact Hok|].
      intros; apply sworld_do_push.
    - rewrite <- (native_call_s_fst call csub E). apply SQ_lift; [exact Hok|apply nc_q; exact Hok|].
      intros; apply sworld_do_push.
  Qed.

  Lemma step_q_attrget : forall o m, OKW L (m_w m) ->
    SQ (ops_of (m_w m)) (cadd (step_own rfuel E (I OpAttrGet o) m) (step_sub call csub E (I OpAttrGet o) m))
       (step call rfuel E (I OpAttrGet o) m).
  Proof.
    intros o m Hok. unfold step, step_own, step_sub; cbn [i_op i_arg]. change (cadd cz ?x) with x.
    unfold arg_str, with_pop. destruct (pop (m_fr m)) as [obj fr1].
    destruct o; try (apply SQ_same; [exact Hok|exact Logic.I]).
    rewrite <- (attr_get_s_fst call csub E). apply SQ_lift; [exact Hok|apply ag_q; exact Hok|].
    intros r w1. destruct r; [apply sworld_do_push|reflexivity].
  Qed.

  Lemma step_q_ld : forall op, In op [OpLd; OpLdRaw; OpLdD] -> forall o m, OKW L (m_w m) ->
    SQ (ops_of (m_w m)) (cadd (step_own rfuel E (I op o) m) (step_sub call csub E (I op o) m))
       (step call rfuel E (I op o) m).
  Proof.
    intros op Hop o m Hok.
    destruct Hop as [<-|[<-|[<-|[]]]]; unfold step, step_own, step_sub; cbn [i_op i_arg]; change (cadd cz ?x) with x; unfold arg_str;
      (destruct o; try (apply SQ_same; [exact Hok|exact Logic.I]));
      rewrite <- (load_name_s_fst call csub E); (apply SQ_lift; [exact Hok|apply ln_q; exact Hok|]);
      intros; apply sworld_do_push.
  Qed.

  Lemma SQ_batch : forall w n d, OKW L w -> 0 <= n -> over_by E w n = false -> acct d <= n + 1 ->
    (forall z fr s, SQ (ops_of w) d (dice_result z fr (w_set_pcg (charged E w n) s))) /\ SQ (ops_of w) d SFuel.
  Proof.
    intros w n d Hok Hn Ho Hd. pose proof (OKW_ops _ _ Hok) as Hops.
    destruct (charged_ops_in E L w n HL HLr' (proj1 Hok) ltac:(unfold MaxInt64 in *; lia) Hn Ho) as [C1 C2].
    split; [|unfold SQ; lia]. intros z fr s. unfold dice_result, do_push, SQ.
    destruct (push _ _); [cbn [m_w mk]; rewrite ops_of_set_pcg; lia|lia].
  Qed.

  Lemma step_q_dice : forall o m, OKW L (m_w m) -> dice_ok (m_fr m) ->
    SQ (ops_of (m_w m)) (cadd (step_own rfuel E (I OpDice o) m) (step_sub call csub E (I OpDice o) m))
       (step call rfuel E (I OpDice o) m).
  Proof.
    intros o m Hok Hd. pose proof (SQ_stop _ Hok) as Hz.
    unfold step, step_own, step_sub; cbn [i_op i_arg].
    replace (match o with OInt _ | _ => cz end) with cz by (destruct o; reflexivity). apply SQ_cz_r.
    destruct (fr_dice (m_fr m)) as [|d rest] eqn:Hfd; [apply Hz; unfold need_dice; rewrite Hfd; exact Logic.I|].
    assert (Ht : 0 <= d_times d) by (unfold dice_ok in Hd; rewrite Hfd in Hd; exact (Forall_inv Hd)).
    unfold with_pop. destruct (pop (m_fr m)) as [v fr1]. cbn [fst].
    destruct v; try (apply Hz; exact Logic.I).
    repeat match goal with |- SQ _ (if ?b then cz else _) (if ?b then _ else _) => destruct b; [apply Hz; exact Logic.I|] end.
    rewrite add_ops_spec. destruct (over_by E (m_w m) (d_times d)) eqn:Ho; [apply Hz; exact Logic.I|].
    destruct (dice_cap <? d_times d); [apply Hz; exact Logic.I|].
    destruct (SQ_batch (m_w m) (d_times d) (Z.to_nat (d_times d)) Hok Ht Ho) as [B1 B2]; [unfold acct; rewrite Z2Nat.id by exact Ht; lia|].
    destruct (roll_common _ _ _ _ _ _ _ _ _ _ _) as [[[num x] s]|]; [apply B1|exact B2].
  Qed.

  Lemma step_q_coc : forall op, In op [OpCocBonus; OpCocPenalty] -> forall o m, OKW L (m_w m) ->
    SQ (ops_of (m_w m)) (cadd (step_own rfuel E (I op o) m) (step_sub call csub E (I op o) m))
       (step call rfuel E (I op o) m).
  Proof.
    intros op Hop o m Hok. pose proof (SQ_stop _ Hok) as Hz.
    destruct Hop as [<-|[<-|[]]]; unfold step, step_own, step_sub; cbn [i_op i_arg];
      (replace (match o with OInt _ | _ => cz end) with cz by (destruct o; reflexivity)); apply SQ_cz_r;
      unfold with_pop, with_int; destruct (pop (m_fr m)) as [v fr1]; cbn [fst];
      (destruct v as [n| | | | | | | |]; try (apply Hz; exact Logic.I));
      (destruct (n <? 0) eqn:Hn; [apply Hz; exact Logic.I|]); apply Z.ltb_ge in Hn;
      rewrite add_ops_spec; (destruct (over_by E (m_w m) n) eqn:Ho; [apply Hz; exact Logic.I|]);
      (destruct (dice_cap <? n); [apply Hz; exact Logic.I|]);
      (destruct (SQ_batch (m_w m) n (S (Z.to_nat n)) Hok Hn Ho) as [B1 B2]; [unfold acct; rewrite Nat2Z.inj_succ, Z2Nat.id by exact Hn; lia|]);
      (destruct (roll_coc _ _ _ _ _ _) as [[[num x] s]|]; [apply B1|exact B2]).
  Qed.

  Lemma step_q_fate : forall o m, OKW L (m_w m) ->
    SQ (ops_of (m_w m)) (cadd (step_own rfuel E (I OpDiceFate o) m) (step_sub call csub E (I OpDiceFate o) m))
       (step call rfuel E (I OpDiceFate o) m).
  Proof.
    intros o m Hok. unfold step, step_own, step_sub; cbn [i_op i_arg].
    replace (match o with OInt _ | _ => cz end) with cz by (destruct o; reflexivity). apply SQ_cz_r.
    rewrite add_ops_spec. destruct (over_by E (m_w m) 4) eqn:Ho; [apply (SQ_stop _ Hok); exact Logic.I|].
    destruct (SQ_batch (m_w m) 4 4%nat Hok ltac:(lia) Ho) as [B1 B2]; [unfold acct; lia|].
    destruct (roll_fate _ _ _ _) as [[[sum x] s]|]; [apply B1|exact B2].
  Qed.

  Lemma SQ_rounds : forall w fr1 r k, OKW L w -> rounds_charged L (ops_of w) r k ->
    SQ (ops_of w) (Z.to_nat k) (rounds_step fr1 w r).
  Proof.
    intros w fr1 r k Hok Hr. pose proof (OKW_ops _ _ Hok) as Hops. pose proof (rounds_outcome L w fr1 r k (proj1 Hok) Hr) as Ho.
    destruct Hr as (K1 & K2 & _). unfold SQ, acct. rewrite Z2Nat.id by exact K1.
    destruct (rounds_step fr1 w r); try contradiction; lia.
  Qed.

  Lemma step_q_wod : forall o m, OKW L (m_w m) ->
    SQ (ops_of (m_w m)) (cadd (step_own rfuel E (I OpDiceWod o) m) (step_sub call csub E (I OpDiceWod o) m))
       (step call rfuel E (I OpDiceWod o) m).
  Proof.
    intros o m Hok. pose proof (OKW_ops _ _ Hok) as Hops.
    unfold step, step_own, step_sub; cbn [i_op i_arg].
    replace (match o with OInt _ | _ => cz end) with cz by (destruct o; reflexivity). apply SQ_cz_r.
    unfold with_pop, with_int. destruct (pop (m_fr m)) as [v fr1]. destruct v; try (apply (SQ_stop _ Hok); exact Logic.I). cbv beta iota zeta.
    destruct (negb (wod_check _ _ _ _)) eqn:Hc; [apply (SQ_stop _ Hok); exact Logic.I|]. apply wod_check_pool in Hc.
    change (c_ops (w_self (m_w m))) with (ops_of (m_w m)).
    match goal with |- context [wod_budget_cnt ?a ?b ?c ?d ?e ?f ?g ?h ?i ?j ?k] =>
      destruct (C07_wod_rounds_charged b L c d e f g HL HLr' a h i j k ltac:(unfold MaxInt64 in *; lia) Hc) as [Hf Hr] end.
    rewrite <- Hf. apply SQ_rounds; assumption.
  Qed.

  Lemma step_q_dc : forall o m, OKW L (m_w m) ->
    SQ (ops_of (m_w m)) (cadd (step_own rfuel E (I OpDiceDC o) m) (step_sub call csub E (I OpDiceDC o) m))
       (step call rfuel E (I OpDiceDC o) m).
  Proof.
    intros o m Hok. pose proof (OKW_ops _ _ Hok) as Hops.
    unfold step, step_own, step_sub; cbn [i_op i_arg].
    replace (match o with OInt _ | _ => cz end) with cz by (destruct o; reflexivity). apply SQ_cz_r.
    unfold with_pop, with_int. destruct (pop (m_fr m)) as [v fr1]. destruct v; try (apply (SQ_stop _ Hok); exact Logic.I). cbv beta iota zeta.
    destruct (negb (dc_check _ _ _)) eqn:Hc; [apply (SQ_stop _ Hok); exact Logic.I|]. apply dc_check_pool in Hc.
    change (c_ops (w_self (m_w m))) with (ops_of (m_w m)).
    match goal with |- context [dc_budget_cnt ?a ?b ?c ?d ?e ?f ?g ?h ?i] =>
      destruct (C07_dc_rounds_charged b L c d e HL HLr' a f g h i ltac:(unfold MaxInt64 in *; lia) Hc) as [Hf Hr] end.
    rewrite <- Hf. apply SQ_rounds; assumption.
  Qed.

  Theorem step_q : forall op o m, OKW L (m_w m) -> dice_ok (m_fr m) ->
    SQ (ops_of (m_w m)) (cadd (step_own rfuel E (I op o) m) (step_sub call csub E (I op o) m))
       (step call rfuel E (I op o) m).
  Proof.
    intros op o m Hok Hd. destruct (quiet op) eqn:Hq.
    { (* no die, no sub-VM, and the counter stays *)
      pose proof (step_quiet call rfuel E op o m Hq Hd) as H. pose proof (OKW_ops _ _ Hok) as Hops.
      replace (cadd _ _) with cz by (destruct op; try discriminate Hq; destruct o; reflexivity).
      assert (Hsame : forall w', w_chain w' = w_chain (m_w m) -> ops_of w' = ops_of (m_w m))
        by (intros w' Hw'; unfold ops_of, w_self; rewrite Hw'; reflexivity).
      unfold SQ. rewrite acct_cz. destruct (step call rfuel E (I op o) m); cbn [ssat] in H; try lia.
      - rewrite (Hsame _ (proj1 H)). lia.
      - rewrite (Hsame _ H). lia. }
    destruct op; try discriminate Hq.
    - apply step_q_ld; [left; reflexivity|assumption].
    - apply step_q_ld; [right; right; left; reflexivity|assumption].
    - apply step_q_ld; [right; left; reflexivity|assumption].
    - apply step_q_invoke; assumption.
    - apply step_q_attrget; assumption.
    - apply step_q_dice; assumption.
    - apply step_q_coc; [right; left; reflexivity|assumption].
    - apply step_q_coc; [left; reflexivity|assumption].
    - apply step_q_fate; assumption.
    - apply step_q_wod; assumption.
    - apply step_q_dc; assumption.
  Qed.

  Lemma step_okw : forall op o m, OKW L (m_w m) -> dice_ok (m_fr m) ->
    match step call rfuel E (I op o) m with
    | SNext m2 => OKW L (m_w m2) /\ dice_ok (m_fr m2)
    | SStop m2 => OKW L (m_w m2)
    | _ => True
    end.
  Proof.
    intros op o m Hok Hd. pose proof (OKW_ops _ _ Hok) as Hops.
    pose proof (step_chain call rfuel E L HL HLr _ (WB_inv _ (proj1 Hops)) (I op o) m (OKW_WB _ Hok) (proj2 Hops) Hd) as H.
    destruct (step call rfuel E (I op o) m); try exact Logic.I; cbn [ssat] in H.
    - split; [exact (WB_OKW _ _ (proj1 H))|exact (proj2 H)].
    - exact (WB_OKW _ _ H).
  Qed.
End Quant.

Lemma exec_dice_aux : forall E L, cfg_op_limit (e_cfg E) = L -> 0 < L <= MaxInt64 - 100 ->
  forall fuel m, w_chain (m_w m) <> [] -> dice_ok (m_fr m) -> chain_in_budget L (m_w m) ->
  acct (snd (exec_dice fuel E m)) <= L - ops_of (m_w m) /\
  (forall m', fst (exec_dice fuel E m) = Fin m' -> acct (snd (exec_dice fuel E m)) <= ops_of (m_w m') - ops_of (m_w m)).
Proof.
  intros E L HL HLr. assert (HLr' : 0 < L < MaxInt64) by (unfold MaxInt64 in *; lia).
  induction fuel as [|f IH]; intros m Hch Hdice HCH;
    assert (Hops : 0 <= ops_of (m_w m) <= L) by (apply OKW_ops; split; assumption).
  - cbn [exec_dice snd fst]. rewrite acct_cz. split; [lia|discriminate].
  - rewrite exec_dice_S. destruct (exec_head E m) as [r|ins] eqn:Hh; cbn [fst snd].
    { rewrite acct_cz. split; [lia|]. intros m' ->. apply exec_head_Fin in Hh. subst m'. lia. }
    destruct (counted_in E L m HL HLr' Hch ltac:(unfold MaxInt64 in *; lia) (exec_head_inr _ _ _ Hh)) as (C1 & C2 & C3).
    assert (Hok1 : OKW L (m_w (counted E m))).
    { split; [exact C3|]. refine (set_self_ops_Forall (fun z => 0 <= z <= L) _ _ _ HCH). cbv beta.
      rewrite <- (counted_ops E m Hch), C1. lia. }
    assert (Hcall : forall m0 m', run_pre m0 -> exec f E m0 = Fin m' -> ops_of (m_w m0) <= ops_of (m_w m') <= MaxInt64)
      by (intros m0 m'; apply (C07_counter_never_lowered E L HL HLr f)).
    assert (Hfin : forall sub, w_chain (m_w sub) <> [] -> dice_ok (m_fr sub) -> chain_in_budget L (m_w sub) ->
              forall m', exec f E sub = Fin m' -> chain_in_budget L (m_w m')).
    { intros sub S1 S2 S3. exact (proj2 (proj2 (C07_call_depth_exact E L HL HLr f sub S1 S2 S3))). }
    assert (Hsubq : forall sub, w_chain (m_w sub) <> [] -> dice_ok (m_fr sub) -> chain_in_budget L (m_w sub) ->
              acct (snd (exec_dice f E sub)) <= L - ops_of (m_w sub) /\
              (forall m', exec f E sub = Fin m' -> acct (snd (exec_dice f E sub)) <= ops_of (m_w m') - ops_of (m_w sub))).
    { intros sub S1 S2 S3. destruct (IH sub S1 S2 S3) as (I1 & I2). split; [exact I1|].
      intros m' Hm'. apply I2. rewrite exec_dice_fst. exact Hm'. }
    destruct ins as [op o].
    pose proof (step_q (exec f E) (fun sub => snd (exec_dice f E sub)) f E L HL HLr Hcall Hfin Hsubq op o _ Hok1 Hdice) as HS.
    pose proof (step_okw (exec f E) f E L HL HLr Hcall Hfin op o _ Hok1 Hdice) as HK.
    rewrite C1 in HS. unfold SQ in HS.
    set (d := cadd (step_own f E (I op o) (counted E m))
                   (step_sub (exec f E) (fun sub => snd (exec_dice f E sub)) E (I op o) (counted E m))) in *. clearbody d.
    destruct (step (exec f E) f E (I op o) (counted E m)) as [m2|m2|e m2|s| |s];
      cbn [exec_after snd fst]; try (split; [lia|discriminate]).
    + destruct HK as [K1 K2]. destruct (IH (next_pc m2) (proj1 K1) K2 (proj2 K1)) as (I1 & I2).
      cbn [next_pc m_w] in I1, I2. unfold cnt in *. rewrite acct_cadd. split; [lia|].
      intros m' Hm'. specialize (I2 m' Hm'). lia.
    + pose proof (OKW_ops _ _ HK). split; [lia|]. intros m' [= <-]. lia.
Qed.

(* Under a limit L, from a start counter c0 on a chain of contexts within the budget, one run - including every
   sub-VM activation it starts - rolls at most (L - c0) dice: every die rolled was paid for, within the limit. *)
Theorem C07_dice_bounded_by_budget : forall E L, cfg_op_limit (e_cfg E) = L -> 0 < L <= MaxInt64 - 100 ->
  forall fuel m, w_chain (m_w m) <> [] -> dice_ok (m_fr m) -> chain_in_budget L (m_w m) ->
  fst (exec_dice fuel E m) = exec fuel E m /\
  Z.of_nat (snd (exec_dice fuel E m)) <= Z.max 0 (L - ops_of (m_w m)).
Proof.
  intros E L HL HLr fuel m Hch Hdice HCH. split; [apply exec_dice_fst|].
  destruct (exec_dice_aux E L HL HLr fuel m Hch Hdice HCH) as (A & _). unfold acct in A. lia.
Qed.

(* a finished run: the dice are paid for by the increase of the counter *)
Theorem C07_dice_paid_by_counter : forall E L, cfg_op_limit (e_cfg E) = L -> 0 < L <= MaxInt64 - 100 ->
  forall fuel m m', w_chain (m_w m) <> [] -> dice_ok (m_fr m) -> chain_in_budget L (m_w m) ->
  exec fuel E m = Fin m' ->
  Z.of_nat (snd (exec_dice fuel E m)) <= ops_of (m_w m') - ops_of (m_w m).
Proof.
  intros E L HL HLr fuel m m' Hch Hdice HCH Hfin.
  destruct (exec_dice_aux E L HL HLr fuel m Hch Hdice HCH) as (_ & A).
  specialize (A m'). rewrite exec_dice_fst in A. exact (A Hfin).
Qed.

(* the machine `run` starts: one context, counter 0 *)
Corollary C07_run_dice_bound : forall E L c src st fuel, cfg_op_limit (e_cfg E) = L -> 0 < L <= MaxInt64 - 100 ->
  let m0 := {| m_fr := new_frame c (Some src);
               m_w := {| w_heap := vs_heap st; w_pcg := vs_pcg st; w_st := [];
                         w_chain := [{| c_attrs := vs_attrs st; c_ops := 0 |}] |} |} in
  Z.of_nat (snd (exec_dice fuel E m0)) <= L.
Proof.
  intros E L c src st fuel HL HLr m0.
  destruct (C07_dice_bounded_by_budget E L HL HLr fuel m0) as (_ & H).
  { unfold m0; cbn. discriminate. }
  { unfold m0, dice_ok; cbn. constructor. }
  { unfold chain_in_budget, m0; cbn. constructor; [cbn; lia|constructor]. }
  change (ops_of (m_w m0)) with 0 in *. lia.
Qed.

Definition mach0 (c : code) : machine :=
  {| m_fr := new_frame c (Some "x"%string);
     m_w := {| w_heap := vs_heap st0; w_pcg := vs_pcg st0; w_st := []; w_chain := [{| c_attrs := vs_attrs st0; c_ops := 0 |}] |} |}.
Definition p3d6 : code := [I OpDiceInit ONil; I OpPushInt (OInt 3); I OpDiceSetTimes ONil; I OpPushInt (OInt 6); I OpDice ONil].
Definition pfate : code := [I OpDiceFate ONil].
Definition pb2 : code := [I OpPushInt (OInt 2); I OpCocBonus ONil].
Definition p5a8 : code := [I OpWodInit ONil; I OpPushInt (OInt 5); I OpWodPool ONil; I OpPushInt (OInt 8); I OpDiceWod ONil].
Definition p3c8 : code := [I OpDcInit ONil; I OpPushInt (OInt 3); I OpDcPool ONil; I OpPushInt (OInt 8); I OpDiceDC ONil].
(* (error class or 0, final counter, final generator state, dice) *)
Definition summ (x : result * cnt) : Z * Z * pcg * cnt :=
  (match fst x with
   | Fin m => (0, ops_of (m_w m), w_pcg (m_w m))
   | Fail e m => (Z.of_N (eclass_num e), ops_of (m_w m), w_pcg (m_w m))
   | _ => (-1, -1, {| hi := 0; lo := 0 |})
   end, snd x).

(* counter after the run = instructions dispatched + what the dice opcode charged; dice actually rolled *)
Example C07_dice_examples :
  (* 3d6: 5 instructions + 3 charged, 3 dice *)
  (let '(e, ops, _, d) := summ (exec_dice 100 (env_lim 1000) (mach0 p3d6)) in (e, ops, d)) = (0, 8, 3%nat) /\
  (* f: 1 instruction + 4 charged, 4 dice *)
  (let '(e, ops, _, d) := summ (exec_dice 100 (env_lim 1000) (mach0 pfate)) in (e, ops, d)) = (0, 5, 4%nat) /\
  (* b2: 2 instructions + 2 charged, 3 dice (d100 + 2 tens dice) *)
  (let '(e, ops, _, d) := summ (exec_dice 100 (env_lim 1000) (mach0 pb2)) in (e, ops, d)) = (0, 4, 3%nat) /\
  (* 5a8: 5 instructions + 9 charged over the rounds, 9 dice *)
  (let '(e, ops, _, d) := summ (exec_dice 100 (env_lim 1000) (mach0 p5a8)) in (e, ops, d)) = (0, 14, 9%nat) /\
  (* 3c8: 5 instructions + 6 charged over the rounds, 6 dice *)
  (let '(e, ops, _, d) := summ (exec_dice 100 (env_lim 1000) (mach0 p3c8)) in (e, ops, d)) = (0, 11, 6%nat).
Proof. vm_compute. repeat split. Qed.

(* over budget: 3d6 under a limit of 7 - the charge 5 + 3 = 8 exceeds it: budget error, no die, generator untouched *)
Example C07_dice_over_budget_example :
  summ (exec_dice 100 (env_lim 7) (mach0 p3d6)) = (4, 8, vs_pcg st0, O).
Proof. vm_compute. reflexivity. Qed.

(* WoD under a limit of 12: the first round (5 dice) was charged and rolled (generator advanced), the second round's
   pool of 3 breaks the limit: it is charged (counter 13), NOT rolled, budget error *)
Example C07_wod_over_budget_example :
  let '(e, ops, s, d) := summ (exec_dice 100 (env_lim 12) (mach0 p5a8)) in
  e = 4 /\ ops = 13 /\ d = 5%nat /\ s <> vs_pcg st0.
Proof. vm_compute. repeat split. discriminate. Qed.

(* sub-VMs are counted: the computed value `2d+1` of VMSafety.ftab_comp rolls its 2 dice in a sub-VM; a function whose
   body is `f` called twice: 8 dice in two sub-VMs *)
Definition ftab_f4 : ftab :=
  [ {| f_computed := false; f_name := "f"; f_params := []; f_expr := "return f";
       f_code := Some [I OpDiceFate ONil; I OpRet ONil] |} ].
Example C07_dice_subvm_examples :
  summ (exec_dice 100 {| e_ftab := ftab_comp; e_cfg := e_cfg (env_lim 1000) |} (mach0 prog_comp))
  = (0, 115, {| hi := 14594582461938010890; lo := 5862910401548952268 |}, 2%nat) /\
  (let '(e, ops, _, d) :=
     summ (exec_dice 100 {| e_ftab := ftab_f4; e_cfg := e_cfg (env_lim 1000) |}
             (mach0 [I OpPushFunc (OFn 0); I OpInvoke (OInt 0); I OpPushFunc (OFn 0); I OpInvoke (OInt 0); I OpHalt ONil])) in
   (e, ops, d)) = (0, 217, 8%nat).
Proof. vm_compute. split; reflexivity. Qed.

(* four `f` under a limit of 3 fail closed: the first `f` charges 1 + 4 = 5 > 3: budget error, no die, generator
   untouched (with Fate dice uncharged, as in /repo before e3db4d5, they rolled 12 dice) *)
Example C07_fate_over_budget_example :
  summ (exec_dice 100 (env_lim 3) (mach0 [I OpDiceFate ONil; I OpDiceFate ONil; I OpDiceFate ONil; I OpDiceFate ONil]))
  = (4, 5, vs_pcg st0, O).
Proof. vm_compute. reflexivity. Qed.

(* tightness of the bound: one coc.bonus on a stack holding 2, limit 3, counter 0: 3 dice = L - c0 *)
Definition mtight : machine :=
  {| m_fr := fr_set_stack (new_frame [I OpCocBonus ONil] None) [VInt 2] [] 1 LNone; m_w := m_w (mach0 []) |}.
Example C07_dice_bound_tight :
  w_chain (m_w mtight) <> [] /\ dice_ok (m_fr mtight) /\ chain_in_budget 3 (m_w mtight) /\
  snd (exec_dice 100 (env_lim 3) mtight) = 3%nat /\ 3 - ops_of (m_w mtight) = 3.
Proof.
  split; [cbn; discriminate|]. split; [constructor|]. split; [constructor; [cbn; lia|constructor]|].
  split; vm_compute; reflexivity.
Qed.

(* the hypothesis on the CALLING contexts is needed (as for VMDepth.C07_call_depth_needs_int64_chain): a calling context
   with the non-int64 counter 2^64 - 93 holds the computed value x = 500d6; evaluated for that context the sub-VM
   starts on the wrapped counter 7 and rolls its 500 dice although the running context is at 990 of 1000; on a chain
   within the budget the same evaluation is charged to the running context (300 -> 906) *)
Definition ftab_xd : ftab :=
  [ {| f_computed := true; f_name := "x"; f_params := []; f_expr := "500d6";
       f_code := Some [I OpDiceInit ONil; I OpPushInt (OInt 500); I OpDiceSetTimes ONil; I OpPushInt (OInt 6); I OpDice ONil] |} ].
Definition env_xd (L : Z) : env := {| e_ftab := ftab_xd; e_cfg := e_cfg (env_lim L) |}.
Definition w_xd (c : Z) : world :=
  match exec 10 (env_xd 0) (mach [I OpPushComputed (OFn 0%N); I OpStore (OStr "x")] w_start) with
  | Fin m' => w_set_self_ops (m_w m') c
  | _ => w_start
  end.
Definition w_upd (c up : Z) : world :=
  let w := w_xd c in
  let '(id, h) := alloc_map [] (w_heap w) in
  {| w_heap := h; w_pcg := w_pcg w; w_st := [];
     w_chain := [{| c_attrs := id; c_ops := c |}; {| c_attrs := c_attrs (w_self w); c_ops := up |}] |}.
(* The 500 dice of `x`, from the generator state on which both examples below start the sub-VM.  They are rolled here,
   once: the examples rewrite with roll_xd_eq (the 500 draws are what the independent checker pays for, and it would
   pay for them again in each example). *)
Definition roll_xd := Eval vm_compute in roll_common pcg_next roll_fuel 500 6 None None 0 0 0 0 {| hi := 1; lo := 2 |}.
Lemma roll_xd_eq : roll_common pcg_next roll_fuel 500 6 None None 0 0 0 0 {| hi := 1; lo := 2 |} = roll_xd.
Proof. vm_compute. reflexivity. Qed.

(* The turn of the loop that a concrete machine is at, laid open: head and counted machine evaluated. *)
Ltac open_turn :=
  match goal with |- context [exec_dice (S ?f) ?E ?m] =>
    rewrite (exec_dice_S f E m);
    let h := eval vm_compute in (exec_head E m) in change (exec_head E m) with h;
    let c := eval vm_compute in (counted E m) in change (counted E m) with c;
    cbv iota
  end.
(* One turn: the dispatched instruction evaluated by `ev` while the further turns stay folded behind a variable. *)
Ltac turn ev :=
  open_turn;
  match goal with |- context [exec_dice ?f ?E] =>
    let rest := fresh "rest" in let Hr := fresh "Hr" in
    set (rest := exec_dice f E);
    assert (Hr : forall s, rest s = exec_dice f E s) by reflexivity;
    clearbody rest; ev; rewrite Hr; clear rest Hr
  end.
(* `exec_dice f E s = v` for the sub-VM of `x`: four plain turns, then the dice instruction with the roll left standing
   and replaced by roll_xd *)
Ltac xd_run :=
  do 4 turn ltac:(lazy);
  turn ltac:(lazy -[roll_common pcg_next roll_fuel]; rewrite roll_xd_eq; lazy);
  vm_compute; reflexivity.

(* Closes `.. summ (exec_dice (S f) E m) .. = v` when the instruction that m dispatches starts one sub-VM, whose run the
   tactic `run` proves.  Plain evaluation is right but dear for the independent checker: `exec_dice` runs that sub-VM three
   times (in `step`, and in `step_sub` once for the result and once for the count).  So the three callbacks of
   `exec_dice_S` become variables tied to `exec_dice f E` by equations, the dispatch is evaluated around the stuck
   `call sub` (with `wrap64` folded: unfolded on the symbolic result it swamps the term), the sub-VM is run once, and its
   result is put in. *)
Ltac sub_run_once run :=
  open_turn;
  match goal with |- context [exec_dice ?f ?E] =>
    set (csub := fun sub => snd (exec_dice f E sub)); set (rest := exec_dice f E); set (call := exec f E);
    assert (Hc : forall s, exec_dice f E s = (call s, csub s))
      by (intros s; unfold call, csub; rewrite <- exec_dice_fst; apply surjective_pairing);
    assert (Hr : forall s, rest s = exec_dice f E s) by reflexivity;
    clearbody call csub rest;
    lazy -[wrap64];
    match goal with |- context [call ?s] => specialize (Hc s) end;
    match type of Hc with ?L = _ =>
      let v := eval vm_compute in L in
      assert (Hv : L = v) by (clear; run); rewrite Hv in Hc; clear Hv
    end;
    injection Hc as <- <-; lazy; rewrite Hr; vm_compute; reflexivity
  end.

Example C07_dice_bound_needs_chain_in_budget :
  let m := mach [I OpLd (OStr "x")] (w_upd 990 (two64 - 93)) in
  run_pre m /\ (let '(e, ops, _, d) := summ (exec_dice 50 (env_xd 1000) m) in (e, ops, d)) = (0, 991, 500%nat) /\
  1000 - ops_of (m_w m) = 10.
Proof. split; [apply run_preb_ok; vm_compute; reflexivity|split; [sub_run_once xd_run|vm_compute; reflexivity]]. Qed.
Example C07_dice_subvm_of_calling_context_charged :
  let m := mach [I OpLd (OStr "x")] (w_upd 300 5) in
  chain_in_budget 1000 (m_w m) /\
  (let '(e, ops, _, d) := summ (exec_dice 50 (env_xd 1000) m) in (e, ops, d)) = (0, 906, 500%nat).
Proof. split; [apply chain_in_budgetb_ok; vm_compute; reflexivity|sub_run_once xd_run]. Qed.

Print Assumptions exec_dice_fst.
Print Assumptions C07_dice_charge.
Print Assumptions C07_coc_charge.
Print Assumptions C07_fate_charge.
Print Assumptions C07_wod_dc_charge.
Print Assumptions step_q.
Print Assumptions C07_dice_bounded_by_budget.
Print Assumptions C07_dice_paid_by_counter.
Print Assumptions C07_run_dice_bound.
Print Assumptions C07_fate_over_budget_example.
Print Assumptions C07_dice_bound_tight.
Print Assumptions C07_round_over_not_rolled.
Print Assumptions C07_dice_bound_needs_chain_in_budget.
